(* C14: facts about injection in the interpreter model. *)
From Coq Require Import ZArith List Bool Arith Lia.
From OP Require Import lib.Obs model.Interp model.InterpRun model.C14 proofs.Interp_base proofs.Interp_stack proofs.C02_proofs.
Import ListNotations.
Open Scope Z_scope.

Section Inject.
  Variable p : program.

  Lemma inject_other s r m : m <> r -> st (inject p s r) m = st s m.
  Proof.
    intros N. unfold inject, register_interrupt. destruct (in_ended_block p s r); [reflexivity|]. now rewrite st_set_ns_neq.
  Qed.
  (* an injection changes at most the interrupt_registered flag of a node *)
  Lemma injects_only_register l : forall s m, exists i,
    st (fold_left (inject p) l s) m = set_cond (st s m) (activated (st s m)) i (run_count (st s m)).
  Proof.
    induction l as [|r l IH]; intros s m; cbn [fold_left]; [exists (interrupt_registered (st s m)); now destruct (st s m)|].
    destruct (IH (inject p s r) m) as [i ->]. unfold inject. destruct (st_register p s r m) as [j ->]. now exists i.
  Qed.

  (* the states after the ticks of the run of model/C14.v *)
  Fixpoint states (main : stack) (s : S) (now : Z) (ts : list tick_inj) : list S :=
    match ts with
    | [] => []
    | j :: ts' =>
        let t := j_tick j in
        let s0 := fold_left (complete_cmd p) (t_complete t) s in
        let s1 := fold_left (inject p) (j_inject j) s0 in
        let now' := now + 5 * t_dt t in
        let e := {| e_time := now'; e_thr_wait := t_thr_wait t; e_cond_true := t_cond_true t; e_cond_err := t_cond_err t |} in
        match tick p (rounds_of p) (fuel_of p) e main s1 with
        | None => []
        | Some (main', s2, _) => s2 :: states main' s2 now' ts'
        end
    end.
  Lemma inj_states_gstates ts : forall main s now,
    states main s now ts = gstates p nat (inject p) main s now (map (fun j => (j_tick j, j_inject j)) ts).
  Proof.
    induction ts as [|j ts IH]; intros main s now; cbn [states gstates map]; [reflexivity|].
    destruct (tick p (rounds_of p) (fuel_of p) _ main _) as [[[main' s2] r]|]; [|reflexivity]. now rewrite IH.
  Qed.
  Theorem run_with_injections_monotone ts : forall main s now m, under_alarm p m = false -> C02_proofs.is_blank p m = false ->
    Forall (fun s' => (started (st s m) = true -> started (st s' m) = true) /\ (completed (st s m) = true -> completed (st s' m) = true))
           (states main s now ts).
  Proof.
    intros main s now. rewrite inj_states_gstates. apply run_monotone_upd.
    intros s0 r m _. unfold inject. destruct (st_register p s0 r m) as [i ->]. split; auto.
  Qed.
End Inject.
