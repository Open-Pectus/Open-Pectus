(* Every operation of the engine model, faults and durations included, is a finite composition of a fixed set of
   primitive state changes (step_star), so a property preserved by every primitive holds in every reachable state.  Some
   primitives carry premises (P_clocks, the life cycle of a UOD instance): facts the model has established at that point,
   on which a per-primitive argument may rely.  The properties proved this way: a monitor accepts the event trace and its
   state is related to the engine's (tracks). *)
From Coq Require Import ZArith List Bool Arith.
From OP Require Import lib.Obs lib.ListFacts model.Eng proofs.Eng_nf.
Import ListNotations.
Open Scope Z_scope.

Section Prims.
  Variable safe : list (option Z).
  Variable overlaps : list (list nat).

  Definition uod_event (x : ev) : bool :=
    match x with EUInit _ _ | EUExec _ _ _ | EUFinal _ _ => true | _ => false end.

  Lemma find_u_name e n c : find_u e n = Some c -> c_name c = n.
  Proof. unfold find_u. intros H. apply find_some in H as [_ H]. now apply Nat.eqb_eq in H. Qed.
  Lemma find_u_add e c n :
    find_u (set_cmds e (reg e) (uods e ++ [c])) n =
    match find_u e n with Some x => Some x | None => if Nat.eqb (c_name c) n then Some c else None end.
  Proof.
    unfold find_u. cbn [set_cmds uods]. induction (uods e) as [|x l IH]; cbn [find app]; [reflexivity|].
    destruct (Nat.eqb (c_name x) n); [reflexivity|exact IH].
  Qed.
  Lemma find_u_put e c n :
    find_u (put_u e c) n = if Nat.eqb n (c_name c) then option_map (fun _ => c) (find_u e n) else find_u e n.
  Proof.
    unfold find_u, put_u. cbn [set_cmds uods]. induction (uods e) as [|x l IH]; cbn [find map]; [now destruct (Nat.eqb _ _)|].
    rewrite IH. destruct (Nat.eqb_spec n (c_name c)) as [->|N].
    - destruct (Nat.eqb (c_name x) (c_name c)) eqn:X; [now rewrite Nat.eqb_refl|now rewrite X].
    - destruct (Nat.eqb_spec (c_name x) (c_name c)) as [X|X]; [|reflexivity].
      rewrite X. apply not_eq_sym, Nat.eqb_neq in N. now rewrite N.
  Qed.
  Lemma find_u_put_same e c c0 : find_u e (c_name c) = Some c0 -> find_u (put_u e c) (c_name c) = Some c.
  Proof. intros F. now rewrite find_u_put, Nat.eqb_refl, F. Qed.
  Lemma find_u_drop e k n : find_u (drop_u e k) n = if Nat.eqb n k then None else find_u e n.
  Proof.
    unfold find_u, drop_u. cbn [set_cmds uods]. induction (uods e) as [|x l IH]; cbn [find filter]; [now destruct (Nat.eqb _ _)|].
    destruct (Nat.eqb_spec (c_name x) k) as [<-|X]; cbn [negb find]; rewrite IH.
    - rewrite (Nat.eqb_sym n). now destruct (Nat.eqb (c_name x) n).
    - destruct (Nat.eqb_spec (c_name x) n) as [<-|N]; [|reflexivity]. apply Nat.eqb_neq in X. now rewrite X.
  Qed.
  Lemma find_u_note_cancel_m e m r n : find_u (note_cancel_m e m r) n = find_u e n.
  Proof. now destruct (note_cancel_m_cases e m r) as [->| ->]. Qed.

  (* Stop's second tick (stop_flags o write_image o stop_pre) is ONE primitive although the image write is one of its
     own: between the sub-steps the run has ended while `started` still holds, and there C08's relation (a started engine
     is inside a run of the monitor) fails. *)
  Inductive prim : E -> E -> Prop :=
  | P_mgr e x d q rp : prim e (set_mgr e x d q rp)
  | P_iticks e k : prim e (set_iticks e k)
  | P_now e t w : prim e (set_now e t w)
  | P_clocks e dt : started e = true -> prim e (update_clocks e dt)    (* update_calculated_tags runs only while started *)
  | P_root e : prim e (root_push e)
  | P_uadd e c : find_u e (c_name c) = None -> c_init c = false -> prim e (set_cmds e (reg e) (uods e ++ [c]))
  | P_uinit e n c : find_u e n = Some c -> c_init c = false -> prim e (put_u (emit e (EUInit n (c_id c))) (inited c))
  | P_uexec e n c id k : find_u e n = Some c -> c_id c = id -> c_init c = true -> prim e (emit e (EUExec n id k))
  | P_uput e c c' : find_u e (c_name c') = Some c -> c_id c' = c_id c -> c_init c' = c_init c -> prim e (put_u e c')
  | P_ufin e c c0 : find_u e (c_name c) = Some c0 -> c_id c0 = c_id c -> prim e (fin_u e c)
  | P_write e : prim e (write_image e)
  | P_add_i e c : prim e (set_cmds e (reg e ++ [c]) (uods e))
  | P_put_i e c : prim e (put_i e c)
  | P_drop_i e n : prim e (drop_i e n)
  | P_creq e i : prim e (add_creq e i)
  | P_out e u i v : prim e (set_out_by u e i v)
  | P_unpause e : prim e (unpause_body e)
  | P_unhold e : prim e (unhold_body e)
  | P_pause e : prim e (pause_begin safe e)
  | P_hold e : prim e (hold_begin e)
  | P_stop_begin e : prim e (stop_begin e)
  | P_restart_begin e : prim e (restart_begin e)
  | P_start e : prim e (start_body e)
  | P_stop e : prim e (stop_core safe e)
  | P_restart_stop e : prim e (restart_stop e)
  | P_restart_finish e : prim e (restart_finish e)
  | P_error e : prim e (set_error_state e).

  Inductive star : E -> E -> Prop :=
  | star_refl e : star e e
  | star_step e1 e2 e3 : prim e1 e2 -> star e2 e3 -> star e1 e3.

  Lemma star_one e e' : prim e e' -> star e e'.
  Proof. intros H. eapply star_step; [exact H|apply star_refl]. Qed.
  Lemma star_trans a b c : star a b -> star b c -> star a c.
  Proof. induction 1; intros; [assumption|]. eapply star_step; eauto. Qed.
  Lemma star_snoc {a b c} : prim b c -> star a b -> star a c.
  Proof. intros H2 H1. eapply star_trans; [exact H1|now apply star_one]. Qed.

  (* Each function of the model keeps the states reachable from e0; a walk reads as the function's state changes, last
     one first. *)
  Lemma mark_done_star e0 e m r : star e0 e -> star e0 (fst (mark_done e m r)).
  Proof. intros S. destruct (mark_done_cases e m r) as [->|[d ->]]; [exact S|apply (star_snoc (P_mgr _ _ _ _ _)), S]. Qed.

  Lemma note_cancel_m_star e0 e m r : star e0 e -> star e0 (note_cancel_m e m r).
  Proof. intros S. destruct (note_cancel_m_cases e m r) as [->| ->]; [exact S|apply (star_snoc (P_creq _ _)), S]. Qed.

  Lemma put_u_star e0 e c c' : find_u e (c_name c') = Some c -> c_id c' = c_id c -> c_init c' = c_init c ->
    star e0 e -> star e0 (put_u e c').
  Proof. intros F D I. apply (star_snoc (P_uput _ _ _ F D I)). Qed.

  Lemma cancel_request_star e0 e m r : star e0 e -> star e0 (fst (cancel_request e m r)).
  Proof.
    intros S. unfold cancel_request. destruct (r_name r) as [n|n].
    - destruct (find_i e n) as [c|]; [|exact S]. destruct (i_complete c).
      + apply mark_done_star, (star_snoc (P_drop_i _ _)), S.
      + set (e1 := match n with Pause => unpause_body e | Hold => unhold_body e | _ => e end).
        assert (S1 : star e0 e1).
        { unfold e1. destruct n; try exact S; [apply (star_snoc (P_unpause _)), S|apply (star_snoc (P_unhold _)), S]. }
        destruct (mark_cancelled_raises (tk e1 m) r); cbn [fst].
        * apply (star_snoc (P_put_i _ _)), S1.
        * apply mark_done_star, (star_snoc (P_drop_i _ _)), note_cancel_m_star, S1.
    - assert (U : star e0 (fst (cancel_unstarted e m r))).
      { rewrite cancel_unstarted_eq. cbn [fst]. destruct (mark_cancelled_raises _ r); [|apply note_cancel_m_star]; apply mark_done_star, S. }
      destruct (find_u e n) as [c|] eqn:Ef; [|exact U]. destruct (Nat.eqb (c_id c) (r_id r)); [|exact U]. clear U.
      rewrite <- (find_u_name _ _ _ Ef) in Ef. destruct (c_complete c).
      + apply mark_done_star, (star_snoc (P_ufin _ c c Ef eq_refl)), S.
      + destruct (mark_cancelled_raises (tk e m) r); cbn [fst].
        * now apply (put_u_star _ _ c).
        * apply mark_done_star, (star_snoc (P_ufin _ c c (eq_trans (find_u_note_cancel_m _ _ _ _) Ef) eq_refl)), note_cancel_m_star, S.
  Qed.

  Lemma cancel_all_star e0 e m src : star e0 e -> star e0 (fst (cancel_all e m src)).
  Proof.
    intros S. unfold cancel_all. rewrite let_pair. cbn [fst]. apply (fold_left_inv (fun em => star e0 (fst em))); [|exact S].
    intros em r K. destruct (cname_eqb _ _); [exact K|apply cancel_request_star, K].
  Qed.

  Lemma reset_manager_star e0 e m : star e0 e -> star e0 (fst (reset_manager e m)).
  Proof. intros S. apply (star_snoc (P_iticks _ _)), (star_snoc (P_mgr _ _ _ _ _)), S. Qed.

  Lemma stop_finish_star e0 e m : star e0 e -> star e0 (fst (stop_finish safe e m)).
  Proof. intros S. apply reset_manager_star, (star_snoc (P_stop _)), S. Qed.

  Lemma restart_mid_star e0 e m : star e0 e -> star e0 (fst (restart_mid e m)).
  Proof. intros S. apply reset_manager_star, (star_snoc (P_restart_stop _)), S. Qed.

  Lemma run_icmd_star e0 e m c : star e0 e -> star e0 (fst (fst (fst (run_icmd safe e m c)))).
  Proof.
    intros S. unfold run_icmd. rewrite !let_pair. destruct (i_name c).
    - destruct (started e); cbn [fst]; [exact S|apply (star_snoc (P_start _)), S].
    - destruct (i_pc c); [destruct (_ || _)|]; cbn [fst].
      + exact S.
      + apply cancel_all_star, (star_snoc (P_stop_begin _)), S.
      + apply stop_finish_star, S.
    - destruct (i_pc c).
      + destruct (i_durarg c) as [d|]; [destruct (_ <? _)|]; cbn [fst]; [| apply (star_snoc (P_unpause _))|];
          apply (star_snoc (P_pause _)), S.
      + destruct (i_end c) as [t|]; [destruct (now e <? t)|]; cbn [fst]; [|apply (star_snoc (P_unpause _))|]; exact S.
    - apply (star_snoc (P_unpause _)), S.
    - destruct (i_pc c).
      + destruct (i_durarg c) as [d|]; [destruct (_ <? _)|]; cbn [fst]; [| apply (star_snoc (P_unhold _))|];
          apply (star_snoc (P_hold _)), S.
      + destruct (i_end c) as [t|]; [destruct (now e <? t)|]; cbn [fst]; [|apply (star_snoc (P_unhold _))|]; exact S.
    - apply (star_snoc (P_unhold _)), S.
    - destruct (i_pc c) as [|[|k]]; [destruct (_ || _)| |]; cbn [fst].
      + exact S.
      + apply cancel_all_star, (star_snoc (P_restart_begin _)), S.
      + apply restart_mid_star, S.
      + apply (star_snoc (P_restart_finish _)), S.
    - exact S.
  Qed.

  Lemma tick_icmd_star e0 e m c : star e0 e -> star e0 (fst (fst (fst (tick_icmd safe e m c)))).
  Proof.
    intros S. unfold tick_icmd. rewrite !let_pair. destruct (i_complete c); cbn [fst]; [apply (star_snoc (P_drop_i _ _)), S|].
    destruct (snd (run_icmd safe e m c)); cbn [fst]; [apply (star_snoc (P_put_i _ _))|apply (star_snoc (P_drop_i _ _))];
      apply run_icmd_star, S.
  Qed.

  Lemma exec_internal_star e0 e m r n : star e0 e -> star e0 (fst (fst (exec_internal safe e m r n))).
  Proof.
    intros S. unfold exec_internal. destruct (find_i e n) as [c|].
    - destruct (i_cancelled c); rewrite !let_pair; cbn [fst]; [apply mark_done_star, (star_snoc (P_drop_i _ _)), S|].
      destruct (_ || _); cbn [fst]; [apply mark_done_star|]; apply tick_icmd_star, S.
    - destruct (_ && negb (started e)); [rewrite let_pair; apply mark_done_star, S|].
      set (c := mk_icmd r n). set (e1 := match n with Restart => _ | _ => _ end).
      assert (S1 : star e0 e1).
      { unfold e1. destruct n, m; try apply (star_snoc (P_mgr _ _ _ _ _)); apply (star_snoc (P_add_i _ c)), S. }
      clearbody e1. destruct (untracked (tk e1 m) r); [exact S1|]. rewrite !let_pair.
      destruct (_ || _); cbn [fst]; [apply mark_done_star|]; apply tick_icmd_star, S1.
  Qed.

  Lemma put_fin_star e0 e c c' : find_u e (c_name c') = Some c -> c_id c' = c_id c -> c_init c' = c_init c ->
    star e0 e -> star e0 (fin_u (put_u e c') c').
  Proof.
    intros F D I S. apply (star_snoc (P_ufin _ c' c' (find_u_put_same _ _ _ F) eq_refl)), (put_u_star _ _ c); assumption.
  Qed.

  Lemma exec_uod_star e0 e m r n : star e0 e -> star e0 (fst (fst (exec_uod overlaps e m r n))).
  Proof.
    intros S. unfold exec_uod.
    set (em1 := fold_left _ (current e m) (e, m)).
    assert (S1 : star e0 (fst em1)).
    { apply (fold_left_inv (fun em => star e0 (fst em))); [|exact S].
      intros em c K. destruct (_ && _); [apply cancel_request_star|]; exact K. }
    clearbody em1. clear S. destruct em1 as [e1 m1]. cbv beta iota.
    set (em2 := fold_left _ (current e1 m1) (e1, m1)).
    assert (S2 : star e0 (fst em2)).
    { apply (fold_left_inv (fun em => star e0 (fst em))); [|exact S1].
      intros em c K. destruct (r_name c); [exact K|]. destruct (_ && _); [apply cancel_request_star|]; exact K. }
    clearbody em2. clear S1. destruct em2 as [e2 m2]. cbv beta iota. cbn [fst] in S2.
    set (ec := match find_u e2 n with Some c => _ | None => _ end).
    assert (F3 : star e0 (fst ec) /\ find_u (fst ec) n = Some (snd ec)).
    { unfold ec. destruct (find_u e2 n) as [c|] eqn:Ef; cbn [fst snd]; [now split|]. split.
      - eapply star_snoc; [apply P_uadd; [exact Ef|reflexivity]|exact S2].
      - rewrite find_u_add, Ef. cbn [c_name]. now rewrite Nat.eqb_refl. }
    clearbody ec. destruct ec as [e3 c], F3 as [S3 F3]. cbv beta iota. cbn [fst snd] in *. destruct (find_u_name _ _ _ F3).
    destruct (c_cancelled c); [rewrite let_pair; apply mark_done_star, (star_snoc (P_ufin _ c c F3 eq_refl)), S3|].
    (* init_fn has run from here on *)
    set (e4 := if c_init c then e3 else _).
    assert (F4 : exists c4, star e0 e4 /\ find_u e4 (c_name c) = Some c4 /\ c_init c4 = true /\ c_id c4 = c_id c).
    { unfold e4. destruct (c_init c) eqn:Ei; [now exists c|]. exists (inited c). repeat split.
      - apply (star_snoc (P_uinit _ _ _ F3 Ei)), S3.
      - apply (find_u_put_same _ (inited c) c). exact F3. }
    clearbody e4. destruct F4 as [c4 [S4 [F4 [I4 D4]]]].
    destruct (negb (c_started c) && untracked (tk e4 m2) r); cbn [fst]; [now apply (put_u_star _ _ c4)|].
    destruct (c_complete c); [rewrite let_pair; apply mark_done_star, (star_snoc (P_ufin _ c c4 F4 D4)), S4|].
    set (e6 := match u_out (r_scr r) with Some (o, v) => _ | None => _ end).
    assert (S6 : star e0 e6 /\ find_u e6 (c_name c) = Some c4).
    { unfold e6. destruct (u_out (r_scr r)) as [[o v]|]; (split; [|exact F4]); [apply (star_snoc (P_out _ _ _ _))|];
        apply (star_snoc (P_uexec _ _ c4 _ _ F4 D4 I4)), S4. }
    clearbody e6. destruct S6 as [S6 F6].
    destruct (match u_fail (r_scr r) with Some k => _ | None => false end); rewrite ?let_pair; cbn [fst].
    - destruct (mark_cancelled_raises (tk e6 m2) r); cbn [fst].
      + now apply (put_u_star _ _ c4).
      + apply mark_done_star, (put_fin_star _ _ c4); [now rewrite find_u_note_cancel_m|now rewrite D4|now rewrite I4|].
        apply note_cancel_m_star, S6.
    - destruct (Z.of_nat (u_dur (r_scr r)) <=? c_iter c + 1); rewrite ?let_pair; cbn [fst].
      + apply mark_done_star, (put_fin_star _ _ c4); [exact F6|now rewrite D4|now rewrite I4|exact S6].
      + now apply (put_u_star _ _ c4).
  Qed.

  Lemma exec_loop_star e0 todo : forall e m, star e0 e -> star e0 (fst (fst (exec_loop safe overlaps e m todo))).
  Proof.
    induction todo as [|r todo IH]; intros e m S; cbn [exec_loop]; [exact S|].
    destruct (memn (r_id r) (m_done e m)); [now apply IH|].
    destruct (r_name r) as [n|n]; rewrite !let_pair.
    - destruct (snd (exec_internal safe e m r n)); cbn [fst]; [|apply IH]; apply exec_internal_star, S.
    - destruct (snd (exec_uod overlaps e m r n)); cbn [fst]; [|apply IH]; apply exec_uod_star, S.
  Qed.

  Lemma execute_commands_star e0 e : star e0 e -> star e0 (fst (execute_commands safe overlaps e)).
  Proof.
    intros S. unfold execute_commands. rewrite !let_pair. cbn [fst]. set (p := exec_loop safe overlaps _ None _).
    assert (K : star e0 (fst (fst p))) by apply exec_loop_star, (star_snoc (P_mgr _ _ _ _ _)), S.
    destruct (snd (fst p)); [exact K|apply (star_snoc (P_mgr _ _ _ _ _)), K].
  Qed.

  Lemma fold_schedule_star e0 l e : star e0 e -> star e0 (fold_left schedule l e).
  Proof. apply fold_left_inv. intros e1 r S. apply (star_snoc (P_mgr _ _ _ _ _)), S. Qed.

  (* Engine.tick in two phases: up to and including the interpreter's tick; the clocks, the commands and the image *)
  Definition tick_pre (e : E) (i : tick_in) : E :=
    let e0 := set_now e (t_time i) (t_write_ok i) in
    let e1 := if t_read_ok i then e0 else if last_err e0 then e0 else set_error_state e0 in
    if interp_runs e1 then
      let e' := fold_left schedule (t_interp i) e1 in
      let e'' := match iticks e' with O => set_iticks e' 1 | S O => set_iticks (root_push e') 2 | _ => e' end in
      if t_interp_raises i then set_error_state e'' else e''
    else e1.
  Definition tick_post (e2 : E) (i : tick_in) : E :=
    let e3 := if started e2 then update_clocks e2 (t_dt i) else e2 in
    let '(e4, raised) := execute_commands safe overlaps e3 in
    write_image (if raised then set_error_state e4 else e4).

  Lemma tick_phases e i : tick safe overlaps e i = tick_post (tick_pre e i) i.
  Proof. reflexivity. Qed.

  Lemma tick_interp_star e0 e1 i :
    let e' := fold_left schedule (t_interp i) e1 in
    star e0 e1 -> star e0 (match iticks e' with O => set_iticks e' 1 | S O => set_iticks (root_push e') 2 | _ => e' end).
  Proof.
    cbv zeta. intros S. apply (fold_schedule_star _ (t_interp i)) in S. destruct (iticks _) as [|[|k]].
    - apply (star_snoc (P_iticks _ _)), S.
    - apply (star_snoc (P_iticks _ _)), (star_snoc (P_root _)), S.
    - exact S.
  Qed.

  Lemma tick_read_star e0 e i :
    let e' := set_now e (t_time i) (t_write_ok i) in
    star e0 e -> star e0 (if t_read_ok i then e' else if last_err e' then e' else set_error_state e').
  Proof.
    cbv zeta. intros S. destruct (t_read_ok i); [|destruct (last_err _); [|apply (star_snoc (P_error _))]]; apply (star_snoc (P_now _ _ _)), S.
  Qed.

  Lemma tick_pre_star e0 e i : star e0 e -> star e0 (tick_pre e i).
  Proof.
    intros S. apply (tick_read_star _ _ i) in S. unfold tick_pre. cbv zeta. destruct (interp_runs _); [|exact S].
    apply (tick_interp_star _ _ i) in S. destruct (t_interp_raises i); [apply (star_snoc (P_error _))|]; exact S.
  Qed.

  Lemma tick_post_star e0 e i : star e0 e -> star e0 (tick_post e i).
  Proof.
    intros S. unfold tick_post. rewrite let_pair. apply (star_snoc (P_write _)).
    assert (S3 : star e0 (if started e then update_clocks e (t_dt i) else e))
      by (destruct (started e) eqn:Es; [apply (star_snoc (P_clocks _ _ Es))|]; exact S).
    destruct (snd (execute_commands _ _ _)); [apply (star_snoc (P_error _))|]; apply execute_commands_star, S3.
  Qed.

  Lemma tick_star e0 e i : star e0 e -> star e0 (tick safe overlaps e i).
  Proof. intros S. rewrite tick_phases. apply tick_post_star, tick_pre_star, S. Qed.

  Theorem step_star e o : star e (fst (step safe overlaps e o)).
  Proof.
    destruct o as [i|r n|r|o v|]; cbn [step fst].
    - apply tick_star, star_refl.
    - destruct (validate e n); cbn [fst]; [apply star_one, P_mgr|apply star_refl].
    - apply star_one, P_mgr.
    - apply star_one, P_out.
    - apply star_refl.
  Qed.

  Theorem invariant_by_prims (Q : E -> Prop) :
    (forall e e', prim e e' -> Q e -> Q e') ->
    forall ops e, Q e -> Q (fold_left (fun e o => fst (step safe overlaps e o)) ops e).
  Proof.
    intros H. assert (Hs : forall a b, star a b -> Q a -> Q b) by (induction 1; eauto).
    induction ops as [|o ops IH]; intros e Qe; cbn [fold_left]; [exact Qe|].
    apply IH. eapply Hs; [apply step_star|exact Qe].
  Qed.
End Prims.

Definition app_law {St} (mon : St -> list ev -> option St) : Prop :=
  forall l s l', mon s (l ++ l') = match mon s l with Some s' => mon s' l' | None => None end.

(* for a monitor written out by cases, take step s x := mon s [x] *)
Lemma app_law_step {St} (step : St -> ev -> option St) (mon : St -> list ev -> option St) :
  (forall s, mon s [] = Some s) ->
  (forall s x r, mon s (x :: r) = match step s x with Some s' => mon s' r | None => None end) -> app_law mon.
Proof.
  intros N C l. induction l as [|x l IH]; intros s l'; cbn [app]; [now rewrite N|].
  rewrite (C s x l), (C s x (l ++ l')). destruct (step s x); [apply IH|reflexivity].
Qed.

Section Tracks.
  Context {St : Type} (mon : St -> list ev -> option St).
  Hypothesis mon_app : app_law mon.
  Variables (s0 : St) (rel : E -> St -> Prop).

  Definition tracks (e : E) : Prop := exists s, mon s0 (trace e) = Some s /\ rel e s.

  Lemma tracks_step e e' l : trace e' = trace e ++ l ->
    (forall s, rel e s -> exists s', mon s l = Some s' /\ rel e' s') -> tracks e -> tracks e'.
  Proof.
    intros T K [s [M R]]. destruct (K s R) as [s' [M' R']]. exists s'. split; [|exact R']. now rewrite T, mon_app, M.
  Qed.

  Lemma tracks_quiet e e' l : trace e' = trace e ++ l -> (forall s, mon s l = Some s) ->
    (forall s, rel e s -> rel e' s) -> tracks e -> tracks e'.
  Proof. intros T Q K. apply (tracks_step e e' l T). intros s R. exists s. auto. Qed.

  Lemma tracks_same e e' : trace e' = trace e -> (forall s, rel e s -> rel e' s) -> tracks e -> tracks e'.
  Proof. intros T K [s [M R]]. exists s. rewrite T. auto. Qed.

  (* e' is the state after the write up to fields the relation does not read: Stop's second tick clears `started` after
     its write. *)
  Lemma tracks_write e e' :
    (forall s v, mon s [EHwWrite v] = Some s) -> (forall s, mon s [EError] = Some s) ->
    (forall s, rel e s -> rel (hw_write e) s) -> (forall s, rel e s -> rel (set_error_state e) s) ->
    trace e' = trace (write_image e) -> (forall s, rel (write_image e) s -> rel e' s) -> tracks e -> tracks e'.
  Proof.
    intros M1 M2 R1 R2 T R H. apply (tracks_same (write_image e)); [exact T|exact R|]. revert H.
    destruct (write_image_cases e) as [->|[_ [[_ ->]|[_ [_ ->]]]]]; [exact id| |];
      eapply tracks_quiet; try reflexivity; auto.
  Qed.
End Tracks.

(* For the per-primitive proofs: after `destruct` on the primitive, `try (autorewrite with eng_nf; <tracks_same or
   tracks_quiet>)` closes by computation the cases the monitor and the relation do not see; a failed `try` undoes the
   rewriting, so the cases left over still name the model's functions. *)
#[global] Hint Rewrite update_clocks_eq unpause_body_eq unhold_body_eq hold_begin_eq pause_begin_eq : eng_nf.
