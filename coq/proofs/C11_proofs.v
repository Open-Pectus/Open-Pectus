(* C11: in every reachable state the non-strict mon11 accepts the trace and its live set is the set of initialised
   instances the engine holds (R11, kept by every primitive; the UOD life-cycle primitives carry the registry facts the
   argument needs), and what _cancel_command leaves of a UOD request. *)
From Coq Require Import ZArith List Bool Arith.
From OP Require Import lib.Obs lib.ListFacts model.Eng model.EngRun model.C11 proofs.Eng_nf proofs.Eng_prims.
Import ListNotations.
Open Scope Z_scope.

Lemma mon11_app st ov : app_law (mon11 st ov).
Proof. now apply (app_law_step (ev11 st ov)). Qed.

Lemma key_eqb_eq a b : key_eqb a b = true <-> a = b.
Proof. exact (pair_eqb_eq _ _ Nat.eqb_eq Nat.eqb_eq a b). Qed.
Lemma memk_In k l : memk k l = true <-> In k l.
Proof.
  unfold memk. rewrite existsb_exists. split.
  - intros [x [Hx E]]. apply key_eqb_eq in E. now subst.
  - intros H. exists k. split; [exact H|now apply key_eqb_eq].
Qed.
Lemma has_name_In n l : has_name n l = true <-> exists id, In (n, id) l.
Proof.
  unfold has_name. rewrite existsb_exists. split.
  - intros [[a b] [Hx E]]. cbn [fst] in E. apply Nat.eqb_eq in E. subst. now exists b.
  - intros [id H]. exists (n, id). split; [exact H|apply Nat.eqb_refl].
Qed.

Lemma find_u_put_none e c : find_u e (c_name c) = None -> find_u (put_u e c) (c_name c) = None.
Proof. intros F. now rewrite find_u_put, Nat.eqb_refl, F. Qed.

Section C11.
  Variable safe : list (option Z).
  Variable overlaps : list (list nat).

  Definition inited_in (e : E) (n id : nat) : Prop := exists c, find_u e n = Some c /\ c_id c = id /\ c_init c = true.
  Definition agrees (e : E) (s : st11) : Prop := forall n id, In (n, id) (live s) <-> inited_in e n id.
  Definition R11 : E -> Prop := tracks (mon11 false overlaps) st11_0 agrees.

  Lemma R11_uadd e c : find_u e (c_name c) = None -> c_init c = false -> R11 e -> R11 (set_cmds e (reg e) (uods e ++ [c])).
  Proof.
    intros F I. apply tracks_same; [reflexivity|]. intros s A n id. rewrite (A n id). unfold inited_in. rewrite find_u_add.
    destruct (find_u e n); [reflexivity|]. destruct (Nat.eqb (c_name c) n); [|reflexivity].
    split; intros [c0 [H [_ H3]]]; [discriminate|]. injection H as <-. congruence.
  Qed.

  Lemma R11_uinit e n c : find_u e n = Some c -> c_init c = false -> R11 e -> R11 (put_u (emit e (EUInit n (c_id c))) (inited c)).
  Proof.
    intros F I. destruct (find_u_name _ _ _ F). eapply (tracks_step _ (mon11_app false overlaps)); [reflexivity|].
    intros s A. assert (Hno : forall id, ~ In (c_name c, id) (live s)).
    { intros id Hin. apply A in Hin as [c0 [H1 [_ H3]]]. rewrite F in H1. injection H1 as <-. congruence. }
    exists {| live := (c_name c, c_id c) :: live s; superseded := []; dead := dead s |}. split.
    - cbn [mon11 ev11 andb]. destruct (has_name (c_name c) (live s)) eqn:E; [|reflexivity].
      apply has_name_In in E as [id Hin]. now destruct (Hno id).
    - intros k id. cbn [live In]. unfold inited_in. rewrite find_u_put. cbn [inited c_name].
      change (find_u (emit e _) k) with (find_u e k). destruct (Nat.eqb_spec k (c_name c)) as [->|N].
      + rewrite F. cbn [option_map]. split.
        * intros [[= <-]|Hin]; [now exists (inited c)|now destruct (Hno id)].
        * intros [c0 [[= <-] [<- _]]]. now left.
      + rewrite <- (A k id). split; [intros [[= E _]|Hin]; [congruence|exact Hin]|now right].
  Qed.

  Lemma R11_uexec e n c id k : find_u e n = Some c -> c_id c = id -> c_init c = true -> R11 e -> R11 (emit e (EUExec n id k)).
  Proof.
    intros F D I. eapply (tracks_step _ (mon11_app false overlaps)); [reflexivity|]. intros s A. exists s.
    split; [|exact A]. cbn [mon11 ev11 andb]. assert (L : memk (n, id) (live s) = true) by (apply memk_In, A; now exists c).
    now rewrite L.
  Qed.

  Lemma R11_uput e c c' : find_u e (c_name c') = Some c -> c_id c' = c_id c -> c_init c' = c_init c -> R11 e -> R11 (put_u e c').
  Proof.
    intros F D I. apply tracks_same; [reflexivity|]. intros s A n id. rewrite (A n id). unfold inited_in. rewrite find_u_put.
    destruct (Nat.eqb_spec n (c_name c')) as [->|N]; [|reflexivity]. rewrite F. cbn [option_map].
    split; intros [c0 [[= <-] [H2 H3]]]; eexists; repeat split; congruence.
  Qed.

  Lemma R11_ufin e c c0 : find_u e (c_name c) = Some c0 -> c_id c0 = c_id c -> R11 e -> R11 (fin_u e c).
  Proof.
    intros F D. eapply (tracks_step _ (mon11_app false overlaps)); [reflexivity|]. intros s A.
    eexists. split; [reflexivity|]. intros n id. cbn [live]. rewrite filter_In, (A n id). unfold inited_in, fin_u.
    rewrite find_u_drop. change (find_u (emit e _) n) with (find_u e n). unfold key_eqb. cbn [fst snd].
    destruct (Nat.eqb_spec n (c_name c)) as [->|N]; cbn [andb negb]; [|tauto].
    split; [|intros [x [[=] _]]]. intros [[c1 [H1 [<- _]]] Hne]. rewrite F in H1. injection H1 as <-.
    now rewrite D, Nat.eqb_refl in Hne.
  Qed.

  Lemma R11_prim e e' : prim safe e e' -> R11 e -> R11 e'.
  Proof.
    intros P. destruct P;
      try (autorewrite with eng_nf; apply tracks_same; [reflexivity|exact (fun _ H => H)]);
      try (autorewrite with eng_nf; eapply (tracks_quiet _ (mon11_app false overlaps));
           [reflexivity|reflexivity|exact (fun _ H => H)]).
    - now apply R11_uadd.
    - now apply R11_uinit.
    - now apply (R11_uexec e n c).
    - now apply (R11_uput e c).
    - now apply (R11_ufin e c c0).
    - (* P_write *) apply (tracks_write _ (mon11_app false overlaps)); try reflexivity; exact (fun _ H => H).
    - (* P_stop *) intros H.
      apply (tracks_write _ (mon11_app false overlaps)) with (e := stop_pre safe e); try reflexivity; try exact (fun _ H => H).
      revert H. rewrite stop_pre_eq.
      eapply (tracks_quiet _ (mon11_app false overlaps)); [reflexivity|reflexivity|exact (fun _ H => H)].
  Qed.

  Lemma R11_boot n outs0 : R11 (boot safe (init n outs0)).
  Proof.
    rewrite boot_eq. exists st11_0. split; [reflexivity|]. intros k id. split; [intros []|intros [c [[=] _]]].
  Qed.

  Theorem R11_reachable n outs0 ops :
    R11 (fold_left (fun e o => fst (step safe overlaps e o)) ops (boot safe (init n outs0))).
  Proof. apply (invariant_by_prims safe overlaps R11 R11_prim). apply R11_boot. Qed.

  Lemma find_u_mark_done x m r k : find_u (fst (mark_done x m r)) k = find_u x k.
  Proof. now destruct (mark_done_cases x m r) as [->|[d ->]]. Qed.

  Lemma find_u_cancel_unstarted e m r k : find_u (fst (cancel_unstarted e m r)) k = find_u e k.
  Proof.
    rewrite cancel_unstarted_eq. cbn [fst]. destruct (mark_cancelled_raises _ r); rewrite ?find_u_note_cancel_m; apply find_u_mark_done.
  Qed.

  (* requesting a command cancels the older one: after _cancel_command of a UOD request the instance that request
     started, if still registered, is marked cancelled (exec_uod finalizes a cancelled instance instead of executing it) *)
  Lemma cancel_request_effect e m r k : r_name r = CU k ->
    match find_u (fst (cancel_request e m r)) k with
    | None => True
    | Some c => c_id c = r_id r -> c_cancelled c = true
    end.
  Proof.
    intros Hr. unfold cancel_request. rewrite Hr. destruct (find_u e k) as [c|] eqn:F.
    - destruct (Nat.eqb_spec (c_id c) (r_id r)) as [Eid|Eid].
      + destruct (find_u_name _ _ _ F).
        assert (Fin : forall x, find_u (fst (mark_done (fin_u x c) m r)) (c_name c) = None).
        { intros x. unfold fin_u. now rewrite find_u_mark_done, find_u_drop, Nat.eqb_refl. }
        destruct (c_complete c); [now rewrite Fin|].
        destruct (mark_cancelled_raises (tk e m) r); cbn [fst]; [|now rewrite Fin].
        rewrite find_u_put. cbn [c_name]. now rewrite Nat.eqb_refl, F.
      + now rewrite find_u_cancel_unstarted, F.
    - now rewrite find_u_cancel_unstarted, F.
  Qed.

  Lemma cancel_unstarted_done e m r :
    existsb (fun x => Nat.eqb (r_id x) (r_id r)) (m_exe e m) = true ->
    memn (r_id r) (m_done (fst (cancel_unstarted e m r)) (snd (cancel_unstarted e m r))) = true.
  Proof.
    intros H. rewrite cancel_unstarted_eq. cbn [fst snd].
    assert (N : forall x m', m_done (note_cancel_m x m' r) (snd (mark_done e m r)) = m_done x (snd (mark_done e m r))).
    { intros x m'. now destruct (note_cancel_m_cases x m' r) as [->| ->]. }
    assert (M : forall d, memn (r_id r) (if memn (r_id r) d then d else r_id r :: d) = true)
      by (intros d; destruct (memn (r_id r) d) eqn:E; [exact E|]; unfold memn; cbn [existsb]; now rewrite Nat.eqb_refl).
    destruct (mark_cancelled_raises _ r); rewrite ?N; unfold mark_done; rewrite H; destruct m as [[x d]|]; apply M.
  Qed.
End C11.
