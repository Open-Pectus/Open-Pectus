(* C39: the reader of the run archive inverts the writer on every row the writer accepts (rd_rows): a field is read back
   character by character, escaped or not (rd_esc_field), fields and rows follow. *)
From Coq Require Import ZArith List Bool.
From OP Require Import lib.Obs lib.ListFacts model.C39.
Import ListNotations.
Open Scope Z_scope.

(* "eating CR LF" and "start of record" are one state *)
Lemma rd_N_R t fld rec out : rd N t fld rec out = rd R t fld rec out.
Proof. destruct t; reflexivity. Qed.

Lemma rd_comma t fld rec out : rd F (comma :: t) fld rec out = rd F t [] (rev fld :: rec) out.
Proof. reflexivity. Qed.

Lemma rd_crlf t fld rec out : rd F (cr :: lf :: t) fld rec out = rd R t [] [] (rev (rev fld :: rec) :: out).
Proof. rewrite <- rd_N_R. reflexivity. Qed.

Lemma rd_R_F c t out : is_newline c = false -> rd R (c :: t) [] [] out = rd F (c :: t) [] [] out.
Proof. intros Hc. cbn [rd]. now rewrite Hc. Qed.

Lemma plain_char c :
  needs_escape c = false -> is_newline c = false /\ (c =? backslash) = false /\ (c =? comma) = false.
Proof.
  unfold needs_escape. intros H. apply orb_false_iff in H as [H Hn]. apply orb_false_iff in H as [H _].
  apply orb_false_iff in H as [Hc Hb]. auto.
Qed.

(* CR and LF too: after the escape character the reader takes anything *)
Lemma rd_esc_char c f rest fld rec out :
  rd F (esc_field (c :: f) ++ rest) fld rec out = rd F (esc_field f ++ rest) (c :: fld) rec out.
Proof.
  cbn [esc_field]. destruct (needs_escape c) eqn:Ee; [reflexivity|].
  destruct (plain_char c Ee) as [Hn [Hb Hc]]. cbn [app rd]. now rewrite Hn, Hb, Hc.
Qed.

Lemma rd_esc_field f : forall rest fld rec out, rd F (esc_field f ++ rest) fld rec out = rd F rest (rev f ++ fld) rec out.
Proof.
  induction f as [|c f IH]; intros rest fld rec out; [reflexivity|].
  rewrite rd_esc_char, IH. cbn [rev]. now rewrite <- app_assoc.
Qed.

(* rec holds the fields already read, last first *)
Lemma rd_fields fs : forall f rest rec out,
  rd F (join_fields (f :: fs) ++ cr :: lf :: rest) [] rec out = rd R rest [] [] ((rev rec ++ f :: fs) :: out).
Proof.
  induction fs as [|g fs IH]; intros f rest rec out.
  - cbn [join_fields]. rewrite rd_esc_field, rd_crlf. now rewrite app_nil_r, rev_involutive.
  - change (join_fields (f :: g :: fs)) with (esc_field f ++ comma :: join_fields (g :: fs)).
    rewrite <- app_assoc, rd_esc_field. cbn [app]. rewrite rd_comma, IH.
    rewrite app_nil_r, rev_involutive. cbn [rev]. now rewrite <- app_assoc.
Qed.

(* all that a row needs to come back: the empty row is written as a blank line, which this reader skips, and the row of
   one empty field is refused by the writer *)
Definition writable (r : list str) : bool := match r with [] | [[]] => false | _ => true end.

Lemma row_ok_writable r : row_ok r = true -> writable r = true.
Proof. now destruct r as [|[|c f] [|g fs]]. Qed.

Lemma write_row_ok r : writable r = true -> write_row r = Some (join_fields r ++ [cr; lf]).
Proof. now destruct r as [|[|c f] [|g fs]]. Qed.

(* a writable row does not begin with CR or LF: its first field is nonempty or followed by a comma *)
Lemma rd_start r rest out :
  writable r = true -> rd R (join_fields r ++ rest) [] [] out = rd F (join_fields r ++ rest) [] [] out.
Proof.
  intros Hok. destruct r as [|[|c f] fs]; [discriminate| |].
  - destruct fs; [discriminate|reflexivity].
  - destruct fs; cbn [join_fields esc_field].
    all: destruct (needs_escape c) eqn:Ee; [reflexivity|apply rd_R_F, (plain_char c Ee)].
Qed.

Lemma rd_row r rest out :
  writable r = true -> rd R (join_fields r ++ cr :: lf :: rest) [] [] out = rd R rest [] [] (r :: out).
Proof. intros Hok. rewrite rd_start by exact Hok. destruct r as [|f fs]; [discriminate|]. apply rd_fields. Qed.

Lemma rd_rows rows : forall out,
  forallb writable rows = true -> rd R (write_rows rows) [] [] out = rev out ++ rows.
Proof.
  induction rows as [|r rows IH]; intros out Hok.
  - cbn. now rewrite app_nil_r.
  - cbn [forallb] in Hok. apply andb_true_iff in Hok as [Hr Hrows].
    cbn [write_rows]. rewrite write_row_ok, <- app_assoc by exact Hr. cbn [app].
    rewrite rd_row, IH by assumption. cbn [rev]. now rewrite <- app_assoc.
Qed.

(* of row_ok only writable is used: rd_rows is the round trip for fields with (escaped) CR or LF too *)
Lemma roundtrip rows : forallb row_ok rows = true -> read_rows (write_rows rows) = rows.
Proof.
  intros H. apply (rd_rows rows []). rewrite forallb_forall in *. intros r Hr. apply row_ok_writable, H, Hr.
Qed.

Lemma write_row_none r : write_row r = None <-> r = [[]].
Proof. destruct r as [|[|c f] [|g fs]]; cbn; split; easy. Qed.

Lemma columns now (tags : list (str * str * bool)) :
  length (data_row now (map (fun t => (snd (fst t), snd t)) tags))
  = length (header_row (map (fun t => (fst (fst t), snd t)) tags)).
Proof.
  unfold data_row, header_row. cbn [length]. f_equal. rewrite !map_length.
  induction tags as [|[[n v] a] tags IH]; cbn; [reflexivity|]. destruct a; cbn; now rewrite IH.
Qed.

Lemma model_satisfies_monitor i : holds_b i (run i) = true.
Proof.
  unfold holds_b, run. cbn [snd]. destruct (forallb row_ok i) eqn:E; [|reflexivity].
  rewrite roundtrip by exact E. apply list_eqb_refl, list_eqb_refl, str_eqb_refl.
Qed.
