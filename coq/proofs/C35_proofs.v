(* C35: aggregating an error log entry by entry equals grouping the whole stream into runs of equal entries
   (aggregate_spec); nothing is lost (conservation), order is kept, and a run's count and time are its length and its
   latest time. *)
From Coq Require Import ZArith List Bool Lia.
From OP Require Import lib.Obs lib.ListFacts model.C35.
Import ListNotations.
Open Scope Z_scope.

Lemma aggregate_app log b1 b2 :
  aggregate (aggregate log b1) b2 = aggregate log (b1 ++ b2).
Proof. unfold aggregate. now rewrite fold_left_app. Qed.

Lemma aggregate_batches_concat bs : forall log,
  aggregate_batches log bs = aggregate log (concat bs).
Proof.
  induction bs as [|b bs IH]; intros log; [reflexivity|].
  cbn [concat]. rewrite <- aggregate_app. exact (IH (aggregate log b)).
Qed.

Lemma aggregate_cons log e es : aggregate log (e :: es) = aggregate (step_log log e) es.
Proof. reflexivity. Qed.

Lemma step_log_cons a rest e :
  step_log (a :: rest) e =
  if same_key a e
  then (if a_time a <? e_time e
        then {| a_msg := a_msg a; a_sev := a_sev a; a_time := e_time e; a_occ := a_occ a + 1 |}
        else a) :: rest
  else from_entry e :: a :: rest.
Proof.
  unfold step_log. cbn [step]. destruct (same_key a e); [|reflexivity].
  destruct (a_time a <? e_time e); [reflexivity|]. now destruct (a_time a =? e_time e).
Qed.

Lemma aggregate_cons_spec es : forall a rest,
  rev (aggregate (a :: rest) es) = rev rest ++ group_runs_aux a es.
Proof.
  induction es as [|e es IH]; intros a rest; [reflexivity|].
  rewrite aggregate_cons, step_log_cons. cbn [group_runs_aux]. destruct (same_key a e); [apply IH|].
  rewrite IH. cbn [rev]. now rewrite <- app_assoc.
Qed.

Lemma aggregate_spec es : rev (aggregate [] es) = group_runs es.
Proof. destruct es as [|e es]; [reflexivity|]. exact (aggregate_cons_spec es (from_entry e) []). Qed.

Definition total (log : list agg) : Z := fold_right (fun a s => a_occ a + s) 0 log.
Definition kindn (k : kind) (k' : kind) : Z :=
  match k, k' with
  | New, New | Merged, Merged | Redelivered, Redelivered | Earlier, Earlier => 1
  | _, _ => 0 end.

Fixpoint count (k : kind) (log : list agg) (es : list entry) : Z :=
  match es with
  | [] => 0
  | e :: es' => kindn k (snd (step log e)) + count k (step_log log e) es'
  end.

Lemma step_total log e :
  total (step_log log e) + kindn Redelivered (snd (step log e)) + kindn Earlier (snd (step log e))
  = total log + 1.
Proof.
  unfold step_log, step. destruct log as [|a rest]; [|destruct (same_key a e)].
  2: destruct (a_time a <? e_time e); [|destruct (a_time a =? e_time e)].
  all: cbn [fst snd total fold_right kindn from_entry a_occ]; lia.
Qed.

Lemma conservation es : forall log,
  total (aggregate log es) + count Redelivered log es + count Earlier log es
  = total log + Z.of_nat (length es).
Proof.
  induction es as [|e es IH]; intros log; [unfold aggregate; cbn [fold_left count length]; lia|].
  rewrite aggregate_cons. cbn [count length].
  specialize (IH (step_log log e)). pose proof (step_total log e). lia.
Qed.

(* Within a run of equal keys, times never go backwards => nothing is dropped. *)
Fixpoint nondecreasing_runs_aux (cur : agg) (es : list entry) : Prop :=
  match es with
  | [] => True
  | e :: es' =>
      if same_key cur e then
        a_time cur <= e_time e /\
        nondecreasing_runs_aux
          (if a_time cur <? e_time e
           then {| a_msg := a_msg cur; a_sev := a_sev cur; a_time := e_time e; a_occ := a_occ cur + 1 |}
           else cur) es'
      else nondecreasing_runs_aux (from_entry e) es'
  end.
Definition nondecreasing_runs (es : list entry) : Prop :=
  match es with [] => True | e :: es' => nondecreasing_runs_aux (from_entry e) es' end.

Lemma no_earlier_aux es : forall a rest,
  nondecreasing_runs_aux a es -> count Earlier (a :: rest) es = 0.
Proof.
  induction es as [|e es IH]; intros a rest H; cbn [count]; [reflexivity|].
  cbn [nondecreasing_runs_aux] in H. rewrite step_log_cons. cbn [step].
  destruct (same_key a e); [|now rewrite IH]. destruct H as [Hle H]. rewrite IH by exact H.
  destruct (a_time a <? e_time e) eqn:Hlt; [reflexivity|].
  destruct (a_time a =? e_time e) eqn:Heq; [reflexivity|].
  apply Z.ltb_ge in Hlt. apply Z.eqb_neq in Heq. lia.
Qed.

Lemma no_earlier es : nondecreasing_runs es -> count Earlier [] es = 0.
Proof. destruct es as [|e es]; [reflexivity|]. exact (no_earlier_aux es (from_entry e) []). Qed.

Lemma nothing_lost es :
  nondecreasing_runs es ->
  total (aggregate [] es) + count Redelivered [] es = Z.of_nat (length es).
Proof.
  intros H. pose proof (conservation es []) as C. rewrite (no_earlier es H) in C.
  cbn [total fold_right] in C. lia.
Qed.

Definition ekey (e : entry) := (e_msg e, e_sev e).
Definition akey (a : agg) := (a_msg a, a_sev a).
Definition key_eqb (k1 k2 : Z * Z) := (fst k1 =? fst k2) && (snd k1 =? snd k2).
Fixpoint compress_aux (cur : Z * Z) (ks : list (Z * Z)) : list (Z * Z) :=
  match ks with
  | [] => [cur]
  | k :: ks' => if key_eqb k cur then compress_aux cur ks' else cur :: compress_aux k ks'
  end.
Definition compress ks := match ks with [] => [] | k :: ks' => compress_aux k ks' end.

Lemma group_runs_aux_keys es : forall a,
  map akey (group_runs_aux a es) = compress_aux (akey a) (map ekey es).
Proof.
  induction es as [|e es IH]; intros a; cbn [group_runs_aux map compress_aux]; [reflexivity|].
  change (key_eqb (ekey e) (akey a)) with (same_key a e). destruct (same_key a e).
  - rewrite IH. destruct (a_time a <? e_time e); reflexivity.
  - cbn [map]. rewrite IH. reflexivity.
Qed.

Lemma order_kept es :
  map akey (rev (aggregate [] es)) = compress (map ekey es).
Proof.
  rewrite aggregate_spec. destruct es as [|e es]; [reflexivity|].
  cbn [group_runs map compress]. now rewrite group_runs_aux_keys.
Qed.

Fixpoint increases (t : Z) (ts : list Z) : Z :=
  match ts with
  | [] => 0
  | t' :: ts' => if t <? t' then 1 + increases t' ts' else increases t ts'
  end.
Fixpoint last_max (t : Z) (ts : list Z) : Z :=
  match ts with
  | [] => t
  | t' :: ts' => if t <? t' then last_max t' ts' else last_max t ts'
  end.

Lemma single_run_count a es :
  forallb (same_key a) es = true ->
  group_runs_aux a es =
  [{| a_msg := a_msg a; a_sev := a_sev a;
      a_time := last_max (a_time a) (map e_time es);
      a_occ := a_occ a + increases (a_time a) (map e_time es) |}].
Proof.
  revert a. induction es as [|e es IH]; intros a H.
  - cbn. destruct a; cbn. f_equal. f_equal. lia.
  - cbn [forallb] in H. apply andb_true_iff in H as [Hk H].
    cbn [group_runs_aux map last_max increases]. rewrite Hk.
    destruct (a_time a <? e_time e); rewrite IH by exact H; [|reflexivity]. cbn [a_msg a_sev a_time a_occ]. f_equal. f_equal. lia.
Qed.

(* monitor soundness: holds_b says exactly "output = group_runs of the stream" *)
Lemma q4_eqb_eq a b : q4_eqb a b = true <-> a = b.
Proof.
  destruct a as [[[a1 a2] a3] a4], b as [[[b1 b2] b3] b4]. unfold q4_eqb.
  rewrite !andb_true_iff, !Z.eqb_eq. split; [intros [[[-> ->] ->] ->]; reflexivity|].
  intros H; inversion H; auto.
Qed.

Lemma model_satisfies_monitor i : holds_b i (run i) = true.
Proof.
  unfold holds_b, run, out_eqb. apply (list_eqb_eq _ (list_eqb_eq _ q4_eqb_eq)).
  induction i as [|seg i IH]; cbn [run_from map]; [reflexivity|].
  unfold clear at 1. rewrite IH. f_equal. unfold out_of.
  now rewrite aggregate_batches_concat, concat_map, aggregate_spec.
Qed.
