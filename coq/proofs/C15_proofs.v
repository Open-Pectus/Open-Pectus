(* C15: proofs about the run-log distillation. *)
From Coq Require Import ZArith List Bool Arith Lia.
From OP Require Import lib.Obs lib.ListFacts model.C15.
Import ListNotations.
Open Scope Z_scope.

Definition well_formed (it : item) : Prop := item_ok it = true.

(* invariant of the item an invocation whose first state is at time lo is building *)
Definition bounded (lo : Z) (it : item) : Prop :=
  i_start it = lo /\ (match i_end it with Some e => lo <= e | None => True end) /\
  (concluded (i_state it) = true -> i_end it <> None).

Lemma finalize_id it : i_id (finalize it) = i_id it.
Proof. unfold finalize. now destruct (i_end it). Qed.

Lemma finalize_well_formed lo it : bounded lo it -> well_formed (finalize it).
Proof.
  intros [Hs [He Hc]]. unfold well_formed, item_ok, finalize.
  destruct (i_end it) as [e|] eqn:Ee; cbn [i_end i_start i_state i_cancellable i_forcible].
  - apply andb_true_intro. split; [apply Z.leb_le; lia|]. now destruct (concluded (i_state it)).
  - rewrite Ee. destruct (concluded (i_state it)); [now destruct Hc|reflexivity].
Qed.

Lemma bounded_finalize lo it : bounded lo it -> bounded lo (finalize it).
Proof.
  intros H. unfold finalize. destruct (i_end it) eqn:E; [|exact H].
  destruct H as [A [B C]]. split; [exact A|split; cbn [i_end i_state]; [now rewrite E in B|discriminate]].
Qed.

(* the accumulator while the states of one invocation (first state at time lo, instance id k) are processed: the items of
   earlier invocations followed by at most one item of this invocation *)
Record AInv (base : list item) (lo : Z) (k : nat) (a : acc) : Prop := {
  ai_shape : (a_concluded a = false /\ a_items a = base) \/
             (a_concluded a = true /\ a_item a = None /\
              exists it, a_items a = base ++ [finalize it] /\ bounded lo it /\ i_id it = k);
  ai_item : forall it, a_item a = Some it -> bounded lo it /\ i_id it = k;
  ai_live : a_item a <> None \/ a_concluded a = true }.

Definition in_progress (base : list item) (it : item) (cmd : option bool) : acc :=
  {| a_items := base; a_item := Some it; a_concluded := false; a_cmd := cmd |}.

Lemma ainv_in_progress base lo k it cmd : bounded lo it -> i_id it = k -> AInv base lo k (in_progress base it cmd).
Proof.
  intros B K. split; cbn.
  - left. split; reflexivity.
  - intros x [= <-]. split; assumption.
  - left. discriminate.
Qed.

Lemma ainv_emitted base lo k it : bounded lo it -> i_id it = k ->
  AInv base lo k {| a_items := base ++ [finalize it]; a_item := None; a_concluded := true; a_cmd := None |}.
Proof.
  intros B K. split; cbn.
  - right. split; [reflexivity|split; [reflexivity|]]. exists it. split; [reflexivity|split; assumption].
  - discriminate.
  - right. reflexivity.
Qed.

Definition started (s : rstate) : item :=
  {| i_id := s_inst s; i_state := IStarted; i_start := s_time s; i_end := None; i_cancellable := false; i_cancelled := false;
     i_forcible := false; i_forced := false; i_failed := false |}.

Lemma step_start a s hm : a_item a = None -> a_concluded a = false ->
  step a s true hm = step (in_progress (a_items a) (started s) (a_cmd a)) s false hm.
Proof. destruct a as [items it c cmd]. cbn [a_item a_concluded]. intros -> ->. reflexivity. Qed.

(* a state after a conclusive one re-opens the item already emitted *)
Lemma step_concluded items x cmd s hm :
  step {| a_items := items ++ [x]; a_item := None; a_concluded := true; a_cmd := cmd |} s false hm = step (in_progress items x cmd) s false hm.
Proof. unfold step. cbn [a_items a_item a_concluded]. rewrite removelast_last, last_last. now destruct items. Qed.

(* so a later state always finds an item in progress *)
Lemma step_reopen base lo k a : AInv base lo k a ->
  exists it, bounded lo it /\ i_id it = k /\ forall s hm, step a s false hm = step (in_progress base it (a_cmd a)) s false hm.
Proof.
  destruct a as [items item c cmd]. intros [Sh It Lv]. cbn in Sh, It, Lv. destruct item as [it|].
  - destruct Sh as [[-> ->]|[_ [S2 _]]]; [|discriminate]. destruct (It it eq_refl) as [B K].
    exists it. split; [exact B|split; [exact K|reflexivity]].
  - destruct Lv as [Lv| ->]; [contradiction|]. destruct Sh as [[S1 _]|[_ [_ [it [-> [B K]]]]]]; [discriminate|].
    exists (finalize it). split; [now apply bounded_finalize|split; [now rewrite finalize_id|]].
    intros s hm. apply step_concluded.
Qed.

Lemma step_in_progress base lo k it cmd s hm : bounded lo it -> i_id it = k -> lo <= s_time s ->
  exists a', step (in_progress base it cmd) s false hm = Some a' /\ AInv base lo k a'.
Proof.
  intros [Bs [Be Bc]] Bk Hlo. unfold step, in_progress. cbn [a_items a_item a_concluded a_cmd].
  set (st := match s_name s with SCompleted => ICompleted | SFailed => IFailed | SCancelled => ICancelled | SForced => IForced
                             | SAwaitingThreshold => IAwaitingThreshold | _ => i_state it end).
  set (it' := Build_item (i_id it) st _ _ _ _ _ _ _).
  assert (B' : bounded lo it').
  { split; [exact Bs|split]; cbn [it' i_end i_state].
    - destruct (conclusive (s_name s)); [exact Hlo|exact Be].
    - intros Hc. destruct (conclusive (s_name s)) eqn:Ec; [discriminate|]. apply Bc.
      unfold st in Hc. destruct (s_name s); cbn in Ec, Hc; try discriminate; exact Hc. }
  destruct (negb hm || conclusive (s_name s)); [|eexists; split; [reflexivity|now apply ainv_in_progress]].
  destruct st; eexists; (split; [reflexivity|]); first [now apply ainv_in_progress|now apply ainv_emitted].
Qed.

Lemma step_ok base lo k a s is_start has_more :
  (is_start = true -> a_item a = None /\ a_concluded a = false /\ a_items a = base /\ s_time s = lo /\ s_inst s = k) ->
  (is_start = false -> AInv base lo k a) -> lo <= s_time s ->
  exists a', step a s is_start has_more = Some a' /\ AInv base lo k a'.
Proof.
  intros Hstart Hrest Hlo. destruct is_start.
  - destruct (Hstart eq_refl) as (A & B & <- & <- & <-). rewrite step_start by assumption.
    apply step_in_progress; [split; [reflexivity|split; [exact I|discriminate]]|reflexivity|exact Hlo].
  - destruct (step_reopen _ _ _ _ (Hrest eq_refl)) as (it & B & K & E). rewrite E. now apply step_in_progress.
Qed.

Lemma ordered_times l : forall s lo, ordered (s :: l) = true -> lo <= s_time s -> Forall (fun x => lo <= s_time x) (s :: l).
Proof.
  induction l as [|b l IH]; intros s lo Ho H; constructor; try exact H; [constructor|].
  cbn [ordered] in Ho. apply andb_prop in Ho as [Ho1 Ho2]. apply andb_prop in Ho1 as [_ Ht]. apply Z.leb_le in Ht.
  apply IH; [exact Ho2|lia].
Qed.

Lemma invocation_rest base lo k l : forall a, AInv base lo k a -> Forall (fun x => lo <= s_time x) l ->
  exists a', invocation a l false = Some a' /\ AInv base lo k a'.
Proof.
  induction l as [|s l IH]; intros a Ha Ht; cbn [invocation]; [exists a; split; [reflexivity|exact Ha]|].
  inversion Ht as [|? ? T1 T2]; subst.
  destruct (step_ok base lo k a s false (match l with [] => false | _ => true end)) as [a1 [E1 A1]];
    [discriminate|intros _; exact Ha|exact T1|].
  rewrite E1. now apply IH.
Qed.

Theorem invocation_ok base s l :
  ordered (s :: l) = true ->
  exists a', invocation {| a_items := base; a_item := None; a_concluded := false; a_cmd := None |} (s :: l) true = Some a' /\
    (a_items a' = base \/ exists it, a_items a' = base ++ [it] /\ well_formed it /\ i_id it = s_inst s).
Proof.
  intros Ho. cbn [invocation].
  pose proof (ordered_times l s (s_time s) Ho (Z.le_refl _)) as Tl. inversion Tl as [|? ? _ Tl']; subst.
  destruct (step_ok base (s_time s) (s_inst s) {| a_items := base; a_item := None; a_concluded := false; a_cmd := None |} s true
              (match l with [] => false | _ => true end)) as [a1 [E1 A1]];
    [intros _; repeat split|discriminate|lia|].
  rewrite E1. destruct (invocation_rest base (s_time s) (s_inst s) l a1 A1 Tl') as [a2 [E2 A2]].
  exists a2. split; [exact E2|]. destruct (ai_shape _ _ _ _ A2) as [[_ S]|[_ [_ [it [S [B K]]]]]]; [now left|].
  right. exists (finalize it). split; [exact S|]. split; [exact (finalize_well_formed _ _ B)|now rewrite finalize_id].
Qed.

Lemma add_state_nonempty g s : Forall (fun p => snd p <> []) g -> Forall (fun p => snd p <> []) (add_state g s).
Proof.
  induction g as [|[k l] g IH]; intros F; cbn [add_state].
  - constructor; [discriminate|constructor].
  - inversion F; subst. destruct (Nat.eqb k (s_inst s)).
    + constructor; [cbn; intros H; apply app_eq_nil in H as [_ H]; discriminate|assumption].
    + constructor; [assumption|now apply IH].
Qed.
Lemma split_nonempty l : Forall (fun g => g <> []) (split_states l).
Proof. apply Forall_map, fold_left_inv; [intros g s; apply add_state_nonempty|constructor]. Qed.

Definition decides {A} (b : bool) (o : option A) (P : A -> Prop) : Prop :=
  match o with Some l => b = true /\ P l | None => b = false end.

Lemma decides_cases {A} b (o : option A) P : decides b o P ->
  (b = true -> exists l, o = Some l /\ P l) /\ (b = false -> o = None).
Proof.
  destruct o as [l|]; cbn; [intros [-> H]|intros ->].
  - split; [intros _; now exists l|discriminate].
  - split; [discriminate|reflexivity].
Qed.

Lemma decides_app {A} b1 b2 (o1 o2 : option (list A)) P : decides b1 o1 (Forall P) -> decides b2 o2 (Forall P) ->
  decides (b1 && b2) (match o1, o2 with Some x, Some y => Some (x ++ y) | _, _ => None end) (Forall P).
Proof.
  destruct o1 as [x|]; [intros [-> F1]|intros ->; reflexivity].
  destruct o2 as [y|]; [intros [-> F2]; split; [reflexivity|now apply Forall_app]|exact id].
Qed.

Lemma invocations_spec gs : forall items, Forall well_formed items -> Forall (fun g => g <> []) gs ->
  decides (forallb ordered gs) (invocations items gs) (Forall well_formed).
Proof.
  induction gs as [|g gs IH]; intros items Fi Fg; cbn [invocations forallb]; [split; [reflexivity|exact Fi]|].
  inversion Fg as [|? ? Hg Fgs]; subst. destruct g as [|s l]; [contradiction|].
  destruct (ordered (s :: l)) eqn:Eo; cbn [negb andb]; [|reflexivity].
  destruct (invocation_ok items s l Eo) as [a' [-> Sh]]. apply IH; [|exact Fgs].
  destruct Sh as [->|[it [-> [G _]]]]; [exact Fi|]. apply Forall_app. split; [exact Fi|constructor; [exact G|constructor]].
Qed.

Theorem record_items_spec r : decides (ordered_record r) (record_items r) (Forall well_formed).
Proof.
  unfold record_items, ordered_record.
  destruct (r_class r), (r_name r); try (split; [reflexivity|constructor]).
  all: apply invocations_spec; [constructor|apply split_nonempty].
Qed.

Lemma insert_Forall (P : item -> Prop) x l : P x -> Forall P l -> Forall P (insert x l).
Proof.
  intros Px F. induction F as [|y l Py F IH]; cbn [insert]; [constructor; [exact Px|constructor]|].
  destruct (i_start y <=? i_start x); repeat (constructor; try assumption).
Qed.
Lemma sorted_cons a b l : sorted_by_start (a :: b :: l) = (i_start a <=? i_start b) && sorted_by_start (b :: l).
Proof. reflexivity. Qed.
Lemma sorted_head a l : sorted_by_start (a :: l) = true <->
  Forall (fun b => i_start a <= i_start b) l /\ sorted_by_start l = true.
Proof.
  revert a. induction l as [|b l IH]; intros a; [split; [split; constructor|reflexivity]|].
  rewrite sorted_cons, andb_true_iff, Z.leb_le, Forall_cons_iff. split.
  - intros [H S]. split; [split; [exact H|]|exact S]. apply IH in S as [F _]. revert F. apply Forall_impl. intros c. lia.
  - intros [[H _] S]. split; assumption.
Qed.
Lemma insert_sorted x l : sorted_by_start l = true -> sorted_by_start (insert x l) = true.
Proof.
  induction l as [|y l IH]; intros S; [reflexivity|]. cbn [insert]. destruct (i_start y <=? i_start x) eqn:E.
  - apply sorted_head in S as [F S]. apply sorted_head. split; [|exact (IH S)].
    apply insert_Forall; [now apply Z.leb_le|exact F].
  - rewrite sorted_cons, S, andb_true_r. apply Z.leb_gt in E. apply Z.leb_le. lia.
Qed.
Lemma sort_sorted l : sorted_by_start (sort_items l) = true.
Proof. unfold sort_items. apply fold_left_inv; [intros acc x; apply insert_sorted|reflexivity]. Qed.
Lemma sort_Forall (P : item -> Prop) l : Forall P l -> Forall P (sort_items l).
Proof.
  intros F. unfold sort_items. apply fold_left_inv_in; [|constructor].
  intros acc x Hx. apply insert_Forall. exact (proj1 (Forall_forall P l) F x Hx).
Qed.

Fixpoint all_ordered (rs : list record) : bool :=
  match rs with [] => true | r :: rs' => (match r_class r with CNull => true | _ => ordered_record r end) && all_ordered rs' end.

Lemma all_items_spec rs : decides (all_ordered rs) (all_items rs) (Forall well_formed).
Proof.
  induction rs as [|r rs IH]; cbn [all_items all_ordered]; [split; [reflexivity|constructor]|].
  destruct (r_class r); first [exact IH|exact (decides_app _ _ _ _ _ (record_items_spec r) IH)].
Qed.

Lemma runlog_spec rs : decides (all_ordered rs) (get_runlog rs) (fun l => Forall well_formed l /\ sorted_by_start l = true).
Proof.
  unfold get_runlog. pose proof (all_items_spec rs) as A. destruct (all_items rs) as [l|]; [|exact A].
  destruct A as [O F]. split; [exact O|split; [exact (sort_Forall _ _ F)|apply sort_sorted]].
Qed.

Theorem runlog_total_and_wellformed rs :
  (all_ordered rs = true -> exists l, get_runlog rs = Some l /\ Forall well_formed l /\ sorted_by_start l = true) /\
  (all_ordered rs = false -> get_runlog rs = None).
Proof. exact (decides_cases _ _ _ (runlog_spec rs)). Qed.
