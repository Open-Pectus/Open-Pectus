(* C34: the CSV export is a sample-and-hold of the plot log: after sorting, the cursor of a tag advanced to tick t holds
   the last sample at or before t (cursor_cell), and advancing is monotone, so the rows are those of the specification
   (rows_spec). *)
From Coq Require Import ZArith List Bool Lia.
From OP Require Import lib.Obs lib.ListFacts model.C34.
Import ListNotations.
Open Scope Z_scope.

Fixpoint le_all (t : Z) (l : list sample) : Prop :=
  match l with [] => True | a :: l' => t <= stime a /\ le_all t l' end.
Fixpoint sorted (l : list sample) : Prop :=
  match l with [] => True | a :: l' => le_all (stime a) l' /\ sorted l' end.

Lemma le_all_weaken t t' l : t' <= t -> le_all t l -> le_all t' l.
Proof. induction l as [|a l IH]; cbn; intuition lia. Qed.

Lemma le_all_ins t x l : t <= stime x -> le_all t l -> le_all t (ins x l).
Proof.
  induction l as [|y l IH]; cbn; intros Hx H; [tauto|].
  destruct (stime x <=? stime y); cbn; intuition.
Qed.

Lemma ins_sorted x l : sorted l -> sorted (ins x l).
Proof.
  induction l as [|y l IH]; cbn; intros H; [tauto|].
  destruct H as [Hy Hs]. destruct (stime x <=? stime y) eqn:E; cbn.
  - apply Z.leb_le in E. repeat split; try assumption.
    apply le_all_weaken with (stime y); assumption.
  - apply Z.leb_gt in E. split; [apply le_all_ins; [lia|assumption]|auto].
Qed.

Lemma sort_sorted l : sorted (sort_by_time l).
Proof. induction l as [|x l IH]; cbn; [exact I|apply ins_sorted, IH]. Qed.

Lemma advance_cons2 t a b rest :
  advance t (a :: b :: rest) = if stime b <=? t then advance t (b :: rest) else a :: b :: rest.
Proof. reflexivity. Qed.

Lemma advance_sorted t c : sorted c -> sorted (advance t c).
Proof.
  induction c as [|a c IH]; intros H; [exact I|].
  destruct c as [|b rest]; [exact H|].
  rewrite advance_cons2. destruct (stime b <=? t); [apply IH; apply H|exact H].
Qed.

Lemma cell_cons t a vs : cell t (a :: vs) = if stime a <=? t then Some (sval a) else None.
Proof. cbn. rewrite Z.ltb_antisym. now destruct (stime a <=? t). Qed.

Lemma last_le_all_gt t t' l acc : t < t' -> le_all t' l -> last_le t l acc = acc.
Proof.
  intros Ht. revert acc. induction l as [|a l IH]; cbn; intros acc H; [reflexivity|].
  destruct H as [Ha H]. rewrite IH by assumption. now rewrite (proj2 (Z.leb_gt (stime a) t)) by lia.
Qed.

Lemma cursor_cell t c : sorted c -> cell t (advance t c) = last_le t c None.
Proof.
  induction c as [|a c IH]; intros H; [reflexivity|].
  destruct c as [|b rest]; [apply cell_cons|].
  rewrite advance_cons2. destruct H as [_ Hs]. destruct (stime b <=? t) eqn:Eb.
  - rewrite IH by exact Hs. cbn [last_le]. now rewrite Eb.
  - rewrite cell_cons. cbn [last_le]. rewrite Eb. symmetry.
    apply (last_le_all_gt t (stime b)); [now apply Z.leb_gt|apply Hs].
Qed.

Lemma advance_advance t t' c : t <= t' -> advance t' (advance t c) = advance t' c.
Proof.
  intros Ht. induction c as [|a c IH]; [reflexivity|].
  destruct c as [|b rest]; [reflexivity|].
  rewrite (advance_cons2 t). destruct (stime b <=? t) eqn:Eb; [|reflexivity].
  rewrite advance_cons2. apply Z.leb_le in Eb. rewrite (proj2 (Z.leb_le (stime b) t')) by lia.
  exact IH.
Qed.

Lemma hold_after_advance t t' c :
  sorted c -> t <= t' -> last_le t' (advance t c) None = last_le t' c None.
Proof.
  intros H Ht. rewrite <- (cursor_cell t' (advance t c)) by (apply advance_sorted, H).
  rewrite advance_advance by assumption. apply cursor_cell, H.
Qed.

Fixpoint gt_all (t : Z) (l : list Z) : Prop :=
  match l with [] => True | u :: l' => t < u /\ gt_all t l' end.
Fixpoint strictly_incr (l : list Z) : Prop :=
  match l with [] => True | t :: l' => gt_all t l' /\ strictly_incr l' end.

Lemma gt_all_weaken t t' l : t' <= t -> gt_all t l -> gt_all t' l.
Proof. induction l as [|a l IH]; cbn; intuition lia. Qed.

Lemma gt_all_insert t x l : t < x -> gt_all t l -> gt_all t (insert_uniq x l).
Proof.
  induction l as [|u l IH]; cbn; intros Hx H; [tauto|].
  destruct (x <? u); [cbn; intuition|]. destruct (x =? u); cbn; intuition.
Qed.

Lemma insert_uniq_incr x l : strictly_incr l -> strictly_incr (insert_uniq x l).
Proof.
  induction l as [|u l IH]; cbn; intros H; [tauto|].
  destruct H as [Hu Hs]. destruct (x <? u) eqn:E1.
  - apply Z.ltb_lt in E1. cbn. repeat split; try assumption.
    apply gt_all_weaken with u; [lia|assumption].
  - destruct (x =? u) eqn:E2; cbn; [tauto|].
    apply Z.ltb_ge in E1. apply Z.eqb_neq in E2.
    split; [apply gt_all_insert; [lia|assumption]|auto].
Qed.

Lemma tick_times_incr es : strictly_incr (tick_times es).
Proof.
  unfold tick_times. induction (map stime (concat es)) as [|t l IH]; cbn; [exact I|].
  apply insert_uniq_incr, IH.
Qed.

Lemma in_insert_uniq x t l : In x (insert_uniq t l) <-> x = t \/ In x l.
Proof.
  induction l as [|u l IH]; cbn; [intuition|].
  destruct (t <? u); [cbn; intuition|].
  destruct (t =? u) eqn:E; cbn.
  - apply Z.eqb_eq in E. subst. intuition.
  - rewrite IH. intuition.
Qed.

Lemma tick_times_complete es x : In x (tick_times es) <-> In x (map stime (concat es)).
Proof.
  unfold tick_times. induction (map stime (concat es)) as [|t l IH]; cbn; [tauto|].
  rewrite in_insert_uniq, IH. intuition.
Qed.

Lemma increasing_cons2 a b l : increasing (a :: b :: l) = (a <? b) && increasing (b :: l).
Proof. reflexivity. Qed.

Lemma increasing_true l : strictly_incr l -> increasing l = true.
Proof.
  induction l as [|a l IH]; [reflexivity|]. destruct l as [|b l']; [reflexivity|].
  intros [[Hab _] Hs]. rewrite increasing_cons2. rewrite IH by exact Hs.
  apply Z.ltb_lt in Hab. now rewrite Hab.
Qed.

Definition spec_rows (ticks : list Z) (cs : list (list sample)) : list (list (option Z)) :=
  map (fun t => map (fun c => last_le t c None) cs) ticks.

Lemma spec_rows_advance t ticks cs :
  Forall sorted cs -> gt_all t ticks ->
  spec_rows ticks (map (advance t) cs) = spec_rows ticks cs.
Proof.
  intros Hs. unfold spec_rows. induction ticks as [|u ticks IH]; cbn [map gt_all]; intros H; [reflexivity|].
  destruct H as [Hu H]. rewrite IH by exact H. f_equal. rewrite map_map. apply map_ext_Forall.
  eapply Forall_impl; [|exact Hs]. intros c Hc. apply hold_after_advance; [exact Hc|lia].
Qed.

Lemma rows_spec ticks : forall cs,
  Forall sorted cs -> strictly_incr ticks -> rows ticks cs = spec_rows ticks cs.
Proof.
  induction ticks as [|t ticks IH]; intros cs Hs H; [reflexivity|].
  destruct H as [Hgt H]. cbn [rows row]. rewrite IH; [| |exact H].
  - rewrite spec_rows_advance by assumption. cbn [spec_rows map]. f_equal.
    rewrite map_map. apply map_ext_Forall. eapply Forall_impl; [|exact Hs]. intros c. apply cursor_cell.
  - apply Forall_map. eapply Forall_impl; [|exact Hs]. intros c. apply advance_sorted.
Qed.

Lemma export_spec es :
  export es = map (fun t => (t, map (hold t) es)) (tick_times es).
Proof.
  unfold export. rewrite rows_spec; [|apply Forall_map, Forall_forall; intros c _; apply sort_sorted|apply tick_times_incr].
  unfold spec_rows. rewrite combine_map_r. apply map_ext. intros t. now rewrite map_map.
Qed.

Lemma model_satisfies_monitor i : holds_b i (run i) = true.
Proof.
  unfold holds_b, run. rewrite export_spec. rewrite map_map. cbn [fst].
  rewrite map_id. rewrite (increasing_true _ (tick_times_incr i)). cbn [andb].
  rewrite forallb_forall. intros r Hr. apply in_map_iff in Hr as [t [<- _]].
  cbn [fst snd]. apply list_eqb_refl, option_eqb_refl, Z.eqb_refl.
Qed.
