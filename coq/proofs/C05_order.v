(* C05 (lock clause): after every tick of every run of the interpreter model, outside the bodies of Alarms and Macros a
   started line whose parent is a Block lies in a block that HAS TAKEN THE LOCK (it holds it, or it has ended / completed
   since) -- no line of a block body runs before the block acquired the block lock. With the chain theorem (the blocks
   holding the lock form one nested chain): the blocks whose bodies are running are nested in each other.
   An instance of section Scope of C02_order.v. *)
From Coq Require Import ZArith List Bool Arith Lia.
From OP Require Import lib.Obs model.Interp model.InterpRun proofs.Interp_stack proofs.Interp_inv proofs.Interp_fields proofs.C02_order.
Import ListNotations.
Open Scope Z_scope.

Section Lock.
  Variable p : program.
  Hypothesis WF : wf_b p = true.

  Definition isB (q : nat) : bool := match n_kind (nd p q) with KBlock => true | _ => false end.
  Definition lk (x : ns) : bool := lock_acquired x || block_ended x || completed x.
  Definition lkd (s : S) (q : nat) : Prop := plain p q = true -> isB q = true -> lk (st s q) = true.
  Definition visA (s : S) (n : nat) : Prop := forall q, par p n q -> lkd s q.
  (* Every frame of a line carries the line's scope (visA); the children loop carries the gate (lkd). Another frame
     carries the gate iff the code after it reaches FKidsEntry n without passing a test that establishes it: a match on the
     line's kind (a Block or not), the test of `lock_acquired`, or the taking of the lock. *)
  Definition Q (s : S) (f : frame) : Prop :=
    match f with
    | FVisit c | FThr c => visA s c
    | FRet | FProgAfter | FProgIdle => True
    | FKidsEntry n | FKids n _ | FKidsAfter n _ => lkd s n
    | FBlkB n | FWatchAwait n | FWatchInv n | FAlarmInv n => visA s n /\ lkd s n
    | FNodeTick n | FVisitEnd n | FMark1 n | FBlankIdle n | FBlank1 n | FBlkA n | FBlkWait n | FBlkC n | FBlkEnd n
    | FWait n _ | FNoop n _ | FWatchBody n | FAlarmAwait n | FAlarmBody n
    | FAlarmPost n | FInjAfter n | FMacro1 n | FCallAfter n _ => visA s n
    end.
  Definition T (s : S) : Prop :=
    length (nodes s) = length p
    /\ forall c q, par p c q -> plain p c = true -> started (st s c) = true -> lkd s q.
  Definition R (s s' : S) : Prop :=
    length (nodes s') = length (nodes s) /\ forall m, plain p m = true -> lk (st s m) = true -> lk (st s' m) = true.

  Lemma Q_stable s s' f : R s s' -> Q s f -> Q s' f.
  Proof.
    intros [_ H]. destruct f; cbn [Q]; try exact id; try (apply scoped_stable; exact H); try (apply gated_stable; exact H);
      intros [A B]; (split; [eapply scoped_stable|eapply gated_stable]; eassumption).
  Qed.

  Definition Alk (m : nat) (x x' : ns) : Prop := plain p m = true -> lk x = true -> lk x' = true.
  Lemma step_R e b f k s : R s (o_state (step p e b f k s)).
  Proof.
    split; [apply step_len|]. refine (node_step p e Alk _ _ _ f b k s _); unfold Alk, lk; auto.
    - intros m x _ _. cbn. now rewrite orb_true_r.
    - intros s0 m x x' U P H. destruct U; cbn; auto using orb_true_r.
      + (* u_unlock *) rewrite Cx. apply orb_true_r.
      + (* u_reset *) rewrite (plain_repeats p a m K D) in P. discriminate.
  Qed.

  Lemma lkd_lock s n t : T s -> lkd (with_tag (set_ns s n (set_block (st s n) true (block_ended (st s n)))) t) n.
  Proof.
    intros [L _] P _. change (st (with_tag ?a t) n) with (st a n). now rewrite (plain_set_ns p).
  Qed.

  (* As in C02_order.v, a pushed frame inherits Q from the popped one by stability under R, except FVisit c pushed by FKids
     (scoped_kid) and a frame that carries the gate pushed by one that does not: there the gate is known from the kind just
     matched (gated_kind), from the `lock_acquired` test just passed, or from the lock just taken (lkd_lock). *)
  Ltac by_frame_reason HT HR :=
    lazymatch goal with
    | |- True => exact I
    | |- _ /\ _ => split; by_frame_reason HT HR
    | |- visA _ _ => first [ eapply scoped_stable; [exact (proj2 HR)|assumption]
                           | match goal with H : nth_error _ _ = Some ?c |- visA _ ?c =>
                               eapply (scoped_kid p WF); [exact H|eapply gated_stable; [exact (proj2 HR)|assumption]] end ]
    | |- lkd _ ?n => first [ eapply gated_stable; [exact (proj2 HR)|assumption]
                           | match goal with K : n_kind (nd p n) = _ |- _ => apply gated_kind; unfold isB; rewrite K; reflexivity end
                           | match goal with H : lock_acquired (st ?s n) = true |- _ =>
                               eapply gated_stable; [exact (proj2 HR)|intros _ _; unfold lk; rewrite H; reflexivity] end
                           | apply (lkd_lock _ _ _ HT) ]
    end.

  Lemma step_frames e b f k s : T s -> Q s f ->
    R s (o_state (step p e b f k s)) -> Forall (Q (o_state (step p e b f k s))) k ->
    Forall (Q (o_state (step p e b f k s))) (o_stack (step p e b f k s)).
  Proof.
    intros HT HQ. destruct f; cbn [Q] in HQ; try (match type of HQ with _ /\ _ => destruct HQ as [Hv Ho] end); cbn [step]; unf.
    3: unfold dispatch; unf.
    all: cases; cbn [o_state o_stack]. all: intros HR Hk; repeat (apply Forall_cons); try exact Hk; cbn [Q]; by_frame_reason HT HR.
  Qed.
End Lock.

(* C05: the scopes are the Blocks, their flag is lk *)
Theorem lock_always_upd p upd apply ts : wf_b p = true -> quiet_upds p lk upd apply ts ->
  Forall (fun s => forall c q, n_parent (nd p c) = Some q -> n_kind (nd p q) = KBlock -> plain p c = true -> plain p q = true ->
                               started (st s c) = true ->
                               lock_acquired (st s q) = true \/ block_ended (st s q) = true \/ completed (st s q) = true)
         (gstates p upd apply [FVisit 0] (init p) 0 ts).
Proof.
  intros W U. eapply Forall_impl; [|apply (scope_always p W (isB p) lk (Q p)); [..|exact U]].
  - intros s [_ H] c q Pq Kq Pc Pl Sc.
    assert (X : lk (st s q) = true) by (apply (H c q Pq Pc Sc Pl); unfold isB; now rewrite Kq).
    unfold lk in X. apply orb_true_iff in X as [X|X]; [apply orb_true_iff in X as [X|X]|]; auto.
  - intros s f n [-> | [-> | [-> | ->]]] H; exact H.
  - intros s n H. exact H.
  - apply Q_stable.
  - intros e b f k s. exact (proj2 (step_R p e b f k s)).
  - intros x H. exact H.
  - intros x _. unfold lk. cbn. apply orb_true_r.
  - apply (step_frames p W).
Qed.

Theorem block_body_runs_only_with_the_lock p ts : wf_b p = true ->
  Forall (fun s => forall c q, n_parent (nd p c) = Some q -> n_kind (nd p q) = KBlock -> plain p c = true -> plain p q = true ->
                               started (st s c) = true ->
                               lock_acquired (st s q) = true \/ block_ended (st s q) = true \/ completed (st s q) = true)
         (states p [FVisit 0] (init p) 0 ts).
Proof. intros W. rewrite states_gstates. apply (lock_always_upd p _ _ _ W), no_upds. Qed.
