(* C14 (scope clauses): over whole runs WITH injections at any ticks (the run function of model/C14.v), outside Alarm and
   Macro bodies a started line -- of the method or of an injected snippet -- lies in a scope that has started (a Watch:
   activated; a Block: took the lock). The stack invariants of C02_order / C04_order / C05_order.v carried through the
   injections: an injection adds one generator, [FVisit r] of a root r without parent, and changes no flag they speak of. *)
From Coq Require Import ZArith List Bool Arith Lia.
From OP Require Import lib.Obs lib.ListFacts model.Interp model.InterpRun model.C14 proofs.Interp_base proofs.C14_proofs proofs.C02_order proofs.C04_order proofs.C05_order.
Import ListNotations.
Open Scope Z_scope.

Section InjRuns.
  Variable p : program.
  Hypothesis WF : wf_b p = true.

  (* the injected roots have no parent line (evaluated by the monitor on every generated case) *)
  Definition roots_ok_b (ts : list tick_inj) : bool :=
    forallb (fun j => forallb (fun r => match n_parent (nd p r) with None => true | Some _ => false end) (j_inject j)) ts.

  Lemma inject_ints s r x : In x (ints (inject p s r)) -> In x (ints s) \/ snd (snd x) = [FVisit r].
  Proof. intros H. apply register_ints in H as [H| ->]; [now left|now right]. Qed.
  Lemma injections_quiet (phi : ns -> bool) ts : (forall x i, phi (set_cond x (activated x) i (run_count x)) = phi x) -> roots_ok_b ts = true ->
    quiet_upds p phi nat (inject p) (map (fun j => (j_tick j, j_inject j)) ts).
  Proof.
    intros Hp H. repeat split; [| |intros s r; apply l_register|].
    - intros s r m. destruct (st_register p s r m) as [i E]. unfold inject. now rewrite E, Hp.
    - intros s r m. destruct (st_register p s r m) as [i E]. unfold inject. now rewrite E.
    - intros t us r Hin Hr s x Hx. destruct (inject_ints s r x Hx) as [A|A]; [now left|]. right. exists r. split; [|exact A].
      apply in_map_iff in Hin as [j [E Hj]]. inversion E; subst.
      apply (proj1 (forallb2_forall _ _ _) H j r Hj) in Hr. now destruct (n_parent (nd p r)).
  Qed.

  Theorem scope_with_injections ts : roots_ok_b ts = true ->
    Forall (fun s => forall c q, n_parent (nd p c) = Some q -> plain p c = true -> plain p q = true ->
                                 started (st s c) = true -> started (st s q) = true)
           (C14_proofs.states p [FVisit 0] (init p) 0 ts).
  Proof.
    intros H. rewrite inj_states_gstates.
    apply (order_always_upd p _ _ _ WF), injections_quiet; [reflexivity|exact H].
  Qed.
  Theorem activation_with_injections ts : roots_ok_b ts = true ->
    Forall (fun s => forall c q, n_parent (nd p c) = Some q -> n_kind (nd p q) = KWatch -> plain p c = true -> plain p q = true ->
                                 started (st s c) = true -> activated (st s q) = true)
           (C14_proofs.states p [FVisit 0] (init p) 0 ts).
  Proof.
    intros H. rewrite inj_states_gstates.
    apply (activation_always_upd p _ _ _ WF), injections_quiet; [reflexivity|exact H].
  Qed.
  Theorem lock_with_injections ts : roots_ok_b ts = true ->
    Forall (fun s => forall c q, n_parent (nd p c) = Some q -> n_kind (nd p q) = KBlock -> plain p c = true -> plain p q = true ->
                                 started (st s c) = true ->
                                 lock_acquired (st s q) = true \/ block_ended (st s q) = true \/ completed (st s q) = true)
           (C14_proofs.states p [FVisit 0] (init p) 0 ts).
  Proof.
    intros H. rewrite inj_states_gstates.
    apply (lock_always_upd p _ _ _ WF), injections_quiet; [reflexivity|exact H].
  Qed.
End InjRuns.
