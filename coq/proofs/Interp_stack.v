(* Invariants of the interpreter model, carried through the tick loop once (section Lift): a condition J on the state and a
   condition F on the stack of the generator that runs, preserved by every transition, hold after every tick. The frames a
   generator has yet to execute are suspended while other generators change the state: R bounds what any transition may
   change and F must be stable under R (rely / guarantee).
   Section StackInv is the instance for a condition Q on every frame of every stack (the running generator's and the ones
   stored in the interrupt map, the tick's copy of the map included) together with a state predicate T. *)
From Coq Require Import ZArith List Bool Arith Lia.
From OP Require Import lib.Obs lib.ListFacts model.Interp model.InterpRun proofs.Interp_base.
Import ListNotations.
Open Scope Z_scope.

Definition o_state (o : outcome) : S := match o with Yield _ _ s' => s' | Go _ s' => s' | Raise _ s' => s' end.
Definition o_stack (o : outcome) : stack := match o with Yield _ k _ => k | Go k _ => k | Raise k _ => k end.

Lemma run_interrupts_nil p rounds fuel e s : run_interrupts p rounds fuel e [] s = Some s.
Proof. reflexivity. Qed.
Lemma run_interrupts_cons p rounds fuel e x snap s :
  run_interrupts p rounds fuel e (x :: snap) s =
  match drive p rounds fuel e true (snd (snd x)) s with
  | None => None
  | Some (k', s1) => run_interrupts p rounds fuel e snap (with_ints s1 (write_back (ints s1) (fst x) (fst (snd x)) k') (serial s1))
  end.
Proof.
  unfold run_interrupts. cbn [fold_left]. destruct (drive p rounds fuel e true (snd (snd x)) s) as [[k' s1]|]; [reflexivity|].
  induction snap as [|y snap IH]; [reflexivity|exact IH].
Qed.

Lemma complete_cmds_inv p (P : S -> Prop) : (forall s n, P s -> P (mark_completed s n)) ->
  forall l s, P s -> P (fold_left (complete_cmd p) l s).
Proof.
  intros H. apply fold_left_inv. intros s n Hs. destruct (complete_cmd_cases p s n) as [->| ->]; [exact Hs|now apply H].
Qed.

Section Lift.
  Variable p : program.
  Variable e : env.
  Variable J : S -> Prop.
  Variable F : S -> stack -> Prop.
  Variable R : S -> S -> Prop.
  Hypothesis R_refl : forall s, R s s.
  Hypothesis R_trans : forall a b c, R a b -> R b c -> R a c.
  Hypothesis F_stable : forall s s' k, R s s' -> F s k -> F s' k.
  Hypothesis F_tail : forall s f k, F s (f :: k) -> F s k.
  Hypothesis F_nil : forall s, F s [].

  Definition keeps (s s' : S) : Prop := R s s' /\ J s'.

  Hypothesis J_step : forall b f k s, J s -> F s (f :: k) ->
    keeps s (o_state (step p e b f k s)) /\ F (o_state (step p e b f k s)) (o_stack (step p e b f k s)).
  Hypothesis J_fail : forall s n, J s -> keeps s (set_error (set_ns s n (set_failed (st s n) true)) n).
  (* storing a generator back into its map entry is the only map update outside the transitions *)
  Hypothesis J_store : forall s n sr k, J s -> F s k -> keeps s (with_ints s (write_back (ints s) n sr k) (serial s)).
  Hypothesis J_load : forall s, J s -> forall x, In x (ints s) -> F s (snd (snd x)).
  Hypothesis J_sched : forall s, J s -> keeps s {| nodes := nodes s; ints := ints s; serial := serial s; last_error := last_error s;
                                                    block_tag := block_tag s; scheduled := 0; marks := marks s; macros := macros s |}.

  Lemma keeps_after a b c k : R a b -> keeps b c /\ F c k -> keeps a c /\ F c k.
  Proof. intros H [[H1 H2] H3]. split; [split; [eapply R_trans; eassumption|exact H2]|exact H3]. Qed.

  Lemma unwind_J k : forall s k' s', J s -> F s k -> unwind k s = Some (k', s') -> keeps s s' /\ F s' k'.
  Proof.
    induction k as [|f k IH]; intros s k' s' Hj Hf U; cbn [unwind] in U; [discriminate|]. apply F_tail in Hf.
    destruct f; try (eapply IH; eassumption).
    inversion U; subst. destruct (J_fail s n Hj) as [Rs Js]. split; [split; assumption|]. eapply F_stable; eassumption.
  Qed.

  Lemma next_gen_J fuel : forall b k s r k' s', J s -> F s k -> next_gen p fuel e b k s = Some (r, k', s') -> keeps s s' /\ F s' k'.
  Proof.
    induction fuel as [|fuel IH]; intros b k s r k' s' Hj Hf N; cbn [next_gen] in N; [discriminate|].
    destruct k as [|f k]; [inversion N; subst; split; [split; [apply R_refl|exact Hj]|exact Hf]|].
    destruct (J_step b f k s Hj Hf) as [[Rs Js] Fs]. destruct (step p e b f k s) as [r0 k0 s0|k0 s0|k0 s0]; cbn [o_state o_stack] in Rs, Js, Fs.
    - inversion N; subst. split; [split; assumption|exact Fs].
    - apply (keeps_after _ _ _ _ Rs). eapply IH; eassumption.
    - destruct (unwind k0 s0) as [[k3 s3]|] eqn:U.
      + apply (keeps_after _ _ _ _ Rs). destruct (unwind_J _ _ _ _ Js Fs U) as [[R1 J1] F1]. apply (keeps_after _ _ _ _ R1). eapply IH; eassumption.
      + inversion N; subst. split; [split; assumption|apply F_nil].
  Qed.

  Lemma drive_J rounds : forall fuel b k s k' s', J s -> F s k -> drive p rounds fuel e b k s = Some (k', s') -> keeps s s' /\ F s' k'.
  Proof.
    induction rounds as [|rounds IH]; intros fuel b k s k' s' Hj Hf D; cbn [drive] in D; [discriminate|].
    destruct (next_gen p fuel e b k s) as [[[r k2] s2]|] eqn:N; [|discriminate].
    destruct (next_gen_J _ _ _ _ _ _ _ Hj Hf N) as [[R1 J1] F1].
    destruct r; try (inversion D; subst; split; [split; assumption|exact F1]).
    apply (keeps_after _ _ _ _ R1). eapply IH; eassumption.
  Qed.

  Lemma run_interrupts_J rounds fuel snap : forall s s', J s -> (forall x, In x snap -> F s (snd (snd x))) ->
    run_interrupts p rounds fuel e snap s = Some s' -> keeps s s'.
  Proof.
    induction snap as [|x snap IH]; intros s s' Hj Sn RI.
    - rewrite run_interrupts_nil in RI. inversion RI; subst. split; [apply R_refl|exact Hj].
    - rewrite run_interrupts_cons in RI. destruct (drive p rounds fuel e true (snd (snd x)) s) as [[k' s1]|] eqn:D; [|discriminate].
      destruct (drive_J _ _ _ _ _ _ _ Hj (Sn x (or_introl eq_refl)) D) as [[R1 J1] F1].
      destruct (J_store s1 (fst x) (fst (snd x)) k' J1 F1) as [R2 J2]. pose proof (R_trans _ _ _ R1 R2) as R12.
      destruct (IH _ _ J2 (fun y Hy => F_stable _ _ _ R12 (Sn y (or_intror Hy))) RI) as [R3 J3].
      split; [eapply R_trans; eassumption|exact J3].
  Qed.

  Theorem tick_J rounds fuel main s main' s' raised :
    J s -> F s main -> tick p rounds fuel e main s = Some (main', s', raised) -> keeps s s' /\ F s' main'.
  Proof.
    intros Hj Hf Tk. unfold tick in Tk. destruct (J_sched s Hj) as [R0 J0].
    destruct (drive p rounds fuel e false main _) as [[m1 s1]|] eqn:D; [|discriminate].
    destruct (drive_J _ _ _ _ _ _ _ J0 (F_stable _ _ _ R0 Hf) D) as [[R1 J1] F1].
    destruct (run_interrupts p rounds fuel e (ints s1) s1) as [s2|] eqn:RI; [|discriminate].
    destruct (run_interrupts_J _ _ _ _ _ J1 (J_load s1 J1) RI) as [R2 J2].
    inversion Tk; subst. split; [split; [eapply R_trans; [exact R0|eapply R_trans; eassumption]|exact J2]|eapply F_stable; eassumption].
  Qed.
End Lift.

Section StackInv.
  Variable p : program.
  Variable Q : S -> frame -> Prop.
  Variable T : S -> Prop.
  Variable R : S -> S -> Prop.
  Hypothesis R_refl : forall s, R s s.
  Hypothesis R_trans : forall a b c, R a b -> R b c -> R a c.
  Hypothesis Q_stable : forall s s' f, R s s' -> Q s f -> Q s' f.

  Definition stacks_ok (s : S) : Prop := forall x, In x (ints s) -> Forall (Q s) (snd (snd x)).
  Definition G (s : S) (k : stack) : Prop := T s /\ Forall (Q s) k /\ stacks_ok s.

  Hypothesis step_G : forall e b f k s, G s (f :: k) ->
    R s (o_state (step p e b f k s)) /\ G (o_state (step p e b f k s)) (o_stack (step p e b f k s)).
  (* the updates outside the transitions *)
  Hypothesis fail_R : forall s n, R s (set_error (set_ns s n (set_failed (st s n) true)) n).
  Hypothesis fail_T : forall s n, T s -> T (set_error (set_ns s n (set_failed (st s n) true)) n).
  Hypothesis ints_R : forall s i sr, R s (with_ints s i sr).
  Hypothesis ints_T : forall s i sr, T s -> T (with_ints s i sr).
  Hypothesis cmd_R : forall s n, R s (mark_completed s n).
  Hypothesis cmd_T : forall s n, T s -> T (mark_completed s n).
  Hypothesis sched_R : forall s, R s {| nodes := nodes s; ints := ints s; serial := serial s; last_error := last_error s;
                                         block_tag := block_tag s; scheduled := 0; marks := marks s; macros := macros s |}.
  Hypothesis sched_T : forall s, T s -> T {| nodes := nodes s; ints := ints s; serial := serial s; last_error := last_error s;
                                             block_tag := block_tag s; scheduled := 0; marks := marks s; macros := macros s |}.

  Lemma Forall_stable s s' k : R s s' -> Forall (Q s) k -> Forall (Q s') k.
  Proof. intros H F. eapply Forall_impl; [|exact F]. intros f. now apply Q_stable. Qed.
  Lemma stacks_stable s s' : R s s' -> ints s' = ints s -> stacks_ok s -> stacks_ok s'.
  Proof. intros H E O x Hx. rewrite E in Hx. eapply Forall_stable; [exact H|now apply O]. Qed.

  (* J of section Lift *)
  Definition TS (s : S) : Prop := T s /\ stacks_ok s.
  Lemma TS_same s s' : ints s' = ints s -> R s s' -> (T s -> T s') -> TS s -> keeps TS R s s'.
  Proof. intros E H HT [Ts O]. split; [exact H|]. split; [now apply HT|now apply (stacks_stable s)]. Qed.
  Lemma G_same s s' k : R s s' -> ints s' = ints s -> T s' -> G s k -> G s' k.
  Proof. intros H E Ts [_ [F O]]. split; [exact Ts|]. split; [now apply (Forall_stable s)|now apply (stacks_stable s)]. Qed.

  Theorem tick_G e rounds fuel main s main' s' raised :
    G s main -> tick p rounds fuel e main s = Some (main', s', raised) -> R s s' /\ G s' main'.
  Proof.
    intros [Ts [Hf O]] Tk. cut (keeps TS R s s' /\ Forall (Q s') main'); [intros [[Rs [Ts' O']] Hf']; repeat split; assumption|].
    eapply (tick_J p e TS (fun s => Forall (Q s)) R R_refl R_trans Forall_stable); [..|exact Tk].
    - intros s0 f k. apply Forall_inv_tail.
    - constructor.
    - intros b f k s0 [T0 O0] F0. destruct (step_G e b f k s0 (conj T0 (conj F0 O0))) as [R1 [T1 [F1 O1]]].
      split; [split; [exact R1|split; assumption]|exact F1].
    - intros s0 n. apply TS_same; [reflexivity|apply fail_R|apply fail_T].
    - intros s0 n sr k [T0 O0] F0. set (s1 := with_ints s0 _ _). assert (R1 : R s0 s1) by apply ints_R.
      split; [exact R1|]. split; [now apply ints_T|]. intros y Hy. apply write_back_entry in Hy as [Hy|[_ [_ ->]]].
      + eapply Forall_stable; [exact R1|now apply O0].
      + eapply Forall_stable; [exact R1|exact F0].
    - intros s0 [_ O0]. exact O0.
    - intros s0. apply TS_same; [reflexivity|apply sched_R|apply sched_T].
    - split; assumption.
    - exact Hf.
  Qed.

  (* runs in which further updates are applied between the ticks (cancel / force requests, injected snippets) *)
  Variable upd : Type.
  Variable apply : S -> upd -> S.

  Fixpoint gstates (main : stack) (s : S) (now : Z) (ts : list (tick_in * list upd)) : list S :=
    match ts with
    | [] => []
    | (t, us) :: ts' =>
        let s1 := fold_left apply us (fold_left (complete_cmd p) (t_complete t) s) in
        let now' := now + 5 * t_dt t in
        let e := {| e_time := now'; e_thr_wait := t_thr_wait t; e_cond_true := t_cond_true t; e_cond_err := t_cond_err t |} in
        match tick p (rounds_of p) (fuel_of p) e main s1 with
        | None => []
        | Some (main', s2, _) => s2 :: gstates main' s2 now' ts'
        end
    end.

  Lemma gstates_ind (okU : upd -> Prop) (Inv : stack -> S -> Prop) (Post : S -> Prop) :
    (forall k s n, Inv k s -> Inv k (mark_completed s n)) ->
    (forall k s u, okU u -> Inv k s -> Inv k (apply s u)) ->
    (forall e k s k' s' r, Inv k s -> tick p (rounds_of p) (fuel_of p) e k s = Some (k', s', r) -> Inv k' s') ->
    (forall k s, Inv k s -> Post s) ->
    forall ts, (forall t us u, In (t, us) ts -> In u us -> okU u) ->
    forall main s now, Inv main s -> Forall Post (gstates main s now ts).
  Proof.
    intros Hc Hu Ht Hp. induction ts as [|[t us] ts IH]; intros OK main s now H; cbn [gstates]; [constructor|].
    set (s1 := fold_left apply us _).
    assert (H1 : Inv main s1).
    { apply fold_left_inv_in; [|apply complete_cmds_inv; [apply Hc|exact H]]. intros s0 u Hin. apply Hu. apply (OK t us u); [now left|exact Hin]. }
    destruct (tick p (rounds_of p) (fuel_of p) _ main s1) as [[[main' s2] r]|] eqn:Tk; [|constructor].
    pose proof (Ht _ _ _ _ _ _ H1 Tk) as H2. constructor; [exact (Hp _ _ H2)|].
    apply IH; [|exact H2]. intros t0 us0 u Hin. apply (OK t0 us0 u). now right.
  Qed.

  Theorem grun_G_upd (okU : upd -> Prop) :
    (forall s u, okU u -> R s (apply s u)) -> (forall s u, okU u -> T s -> T (apply s u)) ->
    (forall s u, okU u -> T s -> stacks_ok s -> stacks_ok (apply s u)) ->
    forall ts, (forall t us u, In (t, us) ts -> In u us -> okU u) ->
    forall main s now, G s main -> Forall T (gstates main s now ts).
  Proof.
    intros UR UT US ts OK main s now. apply (gstates_ind okU (fun k s => G s k) T); [| | | |exact OK].
    - intros k s0 n H. apply (G_same s0); [apply cmd_R| |apply cmd_T; apply H|exact H].
      unfold mark_completed. now destruct (failed (st s0 n)).
    - intros k s0 u Hu [Ts [F O]]. split; [now apply UT|]. split; [eapply Forall_stable; [now apply UR|exact F]|now apply US].
    - intros e k s0 k' s' r H Tk. exact (proj2 (tick_G _ _ _ _ _ _ _ _ H Tk)).
    - intros k s0 H. apply H.
  Qed.

  Hypothesis upd_R : forall s u, R s (apply s u).
  Hypothesis upd_T : forall s u, T s -> T (apply s u).
  Hypothesis upd_stacks : forall s u, T s -> stacks_ok s -> stacks_ok (apply s u).

  Theorem grun_G ts : forall main s now, G s main -> Forall T (gstates main s now ts).
  Proof. apply (grun_G_upd (fun _ => True)); auto. Qed.
End StackInv.
