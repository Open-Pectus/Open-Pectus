(* C07: update_calculated_tags obeys the clock rule (advance_rule, and the clauses read off it), and in every reachable
   state mon7 accepts the trace with (Process Time, Run Time) as its tracked pair: R7, kept by every primitive. *)
From Coq Require Import ZArith List Bool Arith Lia.
From OP Require Import lib.Obs model.Eng model.EngRun model.C07 proofs.Eng_nf proofs.Eng_prims.
Import ListNotations.
Open Scope Z_scope.

Lemma mon7_app : app_law mon7.
Proof.
  apply (app_law_step (fun c x => mon7 c [x])); [reflexivity|]. intros c x r. destruct x; try reflexivity.
  cbn [mon7]. now destruct (_ && _ && _).
Qed.

Lemma sys_eqb_refl s : sys_eqb s s = true.
Proof. destruct s; reflexivity. Qed.

Lemma clock_rule_spec s dt p r bt st p' r' bt' st' : clock_rule s dt [p; r; bt; st] [p'; r'; bt'; st'] = true ->
  p' = (if sys_eqb s Running then p + dt else p) /\ r' = (if active s then r + dt else r)
  /\ (s <> Running -> bt' = bt /\ st' = st).
Proof.
  cbn [clock_rule]. rewrite !andb_true_iff, !Z.eqb_eq. intros [[-> ->] H]. split; [reflexivity|split; [reflexivity|]].
  intros N. rewrite <- !Z.eqb_eq, <- andb_true_iff. destruct s; try exact H. congruence.
Qed.

Lemma advance_rule e dt : clock_rule (sys e) dt (clocks e) (clocks (advance_clocks e dt)) = true.
Proof.
  rewrite advance_clocks_eq. unfold clocks, clock_rule, active. cbn [set_clk set_scope ptime rtime btime stime].
  destruct (sys e), (bpaused e); cbn [sys_eqb orb andb negb]; rewrite ?Z.eqb_refl; reflexivity.
Qed.

Lemma update_clocks_law e dt :
  ptime (update_clocks e dt) = (if sys_eqb (sys e) Running then ptime e + dt else ptime e)
  /\ rtime (update_clocks e dt) = (if active (sys e) then rtime e + dt else rtime e)
  /\ (sys e <> Running -> btime (update_clocks e dt) = btime e /\ stime (update_clocks e dt) = stime e).
Proof. exact (clock_rule_spec _ _ _ _ _ _ _ _ _ _ (advance_rule e dt)). Qed.

Lemma clock_rule_monotone s dt b a : clock_rule s dt b a = true -> 0 <= dt ->
  nth 0 b 0 <= nth 0 a 0 /\ nth 1 b 0 <= nth 1 a 0.
Proof.
  destruct b as [|p [|r [|bt [|st [|]]]]]; try discriminate. destruct a as [|p' [|r' [|bt' [|st' [|]]]]]; try discriminate.
  intros H Hd. apply clock_rule_spec in H as [-> [-> _]]. cbn [nth]. destruct (sys_eqb s Running), (active s); lia.
Qed.

Section C07.
  Variable safe : list (option Z).
  Variable overlaps : list (list nat).

  Definition clocks7 (e : E) (c : Z * Z) : Prop := c = (ptime e, rtime e).
  Definition R7 : E -> Prop := tracks mon7 (0, 0) clocks7.

  Lemma R7_clocks e dt : R7 e -> R7 (update_clocks e dt).
  Proof.
    rewrite update_clocks_eq. eapply (tracks_step _ mon7_app); [reflexivity|]. intros c ->. eexists.
    cbn [mon7]. rewrite advance_rule. unfold clocks at 1 2. cbn [nth fst snd]. rewrite !Z.eqb_refl. split; reflexivity.
  Qed.

  Lemma R7_started e e' r : trace e' = trace e ++ [EStarted r] -> ptime e' = 0 -> rtime e' = 0 -> R7 e -> R7 e'.
  Proof.
    intros T P R. apply (tracks_step _ mon7_app _ _ _ _ _ T). intros c _. exists (0, 0). unfold clocks7. now rewrite P, R.
  Qed.

  Lemma R7_prim e e' : prim safe e e' -> R7 e -> R7 e'.
  Proof.
    intros P. destruct P;
      try (autorewrite with eng_nf; apply tracks_same; [reflexivity|exact (fun _ H => H)]);
      try (autorewrite with eng_nf; eapply (tracks_quiet _ mon7_app); [reflexivity|reflexivity|exact (fun _ H => H)]).
    - apply R7_clocks.
    - (* P_write *) apply (tracks_write _ mon7_app); try reflexivity; exact (fun _ H => H).
    - (* P_start *) now eapply R7_started.
    - (* P_stop *) intros H.
      apply (tracks_write _ mon7_app) with (e := stop_pre safe e); try reflexivity; try exact (fun _ H => H).
      revert H. rewrite stop_pre_eq.
      eapply (tracks_quiet _ mon7_app); [reflexivity|reflexivity|exact (fun _ H => H)].
    - (* P_restart_finish *) now eapply R7_started.
  Qed.

  Lemma R7_boot n outs0 : R7 (boot safe (init n outs0)).
  Proof. rewrite boot_eq. now exists (0, 0). Qed.

  Theorem R7_reachable n outs0 ops :
    let e := fold_left (fun e o => fst (step safe overlaps e o)) ops (boot safe (init n outs0)) in
    mon7 (0, 0) (trace e) = Some (ptime e, rtime e).
  Proof. destruct (invariant_by_prims safe overlaps R7 R7_prim ops _ (R7_boot n outs0)) as [c [M ->]]. exact M. Qed.

  Lemma start_zero e : ptime (start_body e) = 0 /\ rtime (start_body e) = 0.
  Proof. split; reflexivity. Qed.
  Lemma restart_zero e : ptime (restart_finish e) = 0 /\ rtime (restart_finish e) = 0.
  Proof. split; reflexivity. Qed.
End C07.
