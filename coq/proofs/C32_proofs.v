(* C32: has_access refuses exactly when the required roles are non-empty and disjoint from the user's (has_access_spec);
   the guarded routes and the filtered listings are read off it. *)
From Coq Require Import List Bool Arith String.
From OP Require Import lib.Obs lib.ListFacts gen.Routes model.C32.
Import ListNotations.
Local Open Scope list_scope.

Lemma has_access_spec required user :
  has_access required user = false <-> required <> [] /\ forall r, In r required -> ~ In r user.
Proof.
  unfold has_access. destruct required as [|a l]; [split; [discriminate|intros [H _]; congruence]|].
  rewrite <- not_true_iff_false, existsb_exists. split.
  - intros H. split; [discriminate|]. intros r Hr Hu. apply H. exists r. split; [exact Hr|now apply existsb_eqb_In].
  - intros [_ H] [r [Hr Hm]]. apply existsb_eqb_In in Hm. exact (H r Hr Hm).
Qed.

Lemma has_access_open user : has_access [] user = true.
Proof. reflexivity. Qed.

Lemma lacks_all_negb_has_access required user : lacks_all required user = negb (has_access required user).
Proof. unfold lacks_all, has_access. now destruct required. Qed.

Lemma handle_guarded required user :
  handle Guarded (Some required) user = if has_access required user then RPass else R403.
Proof. reflexivity. Qed.

Lemma guarded_refuses required user :
  required <> [] -> (forall r, In r required -> ~ In r user) ->
  handle Guarded (Some required) user = R403.
Proof. intros H1 H2. rewrite handle_guarded, (proj2 (has_access_spec required user)); auto. Qed.

Lemma guarded_open user : handle Guarded (Some []) user = RPass.
Proof. reflexivity. Qed.

Lemma guarded_member required user r :
  In r required -> In r user -> handle Guarded (Some required) user = RPass.
Proof.
  intros H1 H2. rewrite handle_guarded. destruct (has_access required user) eqn:E; [reflexivity|].
  apply has_access_spec in E as [_ E]. destruct (E r H1 H2).
Qed.

Lemma listing_filtered objs user :
  listing ListingFiltered objs user = map (fun required => has_access required user) objs.
Proof. reflexivity. Qed.

Lemma monitor_sound_guarded i obj user :
  kind_of i = Guarded -> holds_b (QRoute i obj user) (run (QRoute i obj user)) = true.
Proof.
  intros K. cbn [run holds_b]. rewrite K. destruct obj as [required|]; [|reflexivity].
  rewrite handle_guarded, lacks_all_negb_has_access. destruct required; [reflexivity|]. now destruct (has_access _ user).
Qed.

Lemma monitor_sound_listing i objs user :
  kind_of i = ListingFiltered -> holds_b (QList i objs user) (run (QList i objs user)) = true.
Proof.
  intros K. cbn [run holds_b]. rewrite K. cbn [listing]. rewrite map_length, Nat.eqb_refl. cbn [andb].
  rewrite combine_map_r. apply forallb_forall. intros rs Hin. apply in_map_iff in Hin as [required [<- _]]. cbn [fst snd].
  rewrite lacks_all_negb_has_access. destruct required; [reflexivity|]. now destruct (has_access _ user).
Qed.

(* what route_ok of props/C32.v asks of a route's kind *)
Definition kind_ok (k : guard_kind) : bool :=
  match k with Guarded | ListingFiltered | NoObject => true | _ => false end.
