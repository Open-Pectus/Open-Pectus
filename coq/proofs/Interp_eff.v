(* What one transition of a generator does to the interpreter state: the state after `step` is reached from the state
   before by a sequence of elementary effects -- updates of one node's state, each with the condition under which the
   transition makes it, changes of the interrupt map and of the macro registry, and changes of the remaining fields. The
   case analysis of `step` for its effect on the state is made here, once; an invariant or a relation between the two
   states is then checked against the elementary effects only. *)
From Coq Require Import ZArith List Bool Arith Lia.
From OP Require Import lib.Obs lib.ListFacts model.Interp model.InterpRun proofs.Interp_base.
Import ListNotations.
Open Scope Z_scope.

Local Notation state_of o := (match o with Yield _ _ s' => s' | Go _ s' => s' | Raise _ s' => s' end).

Section Eff.
  Variable p : program.
  Variable e : env.

  (* the updates of node n's state x that the transition of frame f makes in state s. An over-approximation: a guard is
     kept only where some proof needs it; u_kids a b, u_wait w and u_cond_keep i r allow any value *)
  Inductive nupd (f : frame) (s : S) (n : nat) (x : ns) : ns -> Prop :=
  | u_completed : nupd f s n x (set_completed x true)
  | u_failed : nupd f s n x (set_failed x true)
  | u_kids a b : nupd f s n x (set_kids x a b)
  | u_lock (CL : can_lock p s n = true) : nupd f s n x (set_block x true (block_ended x))
  | u_unlock (Cx : completed x = true) : nupd f s n x (set_block x false (block_ended x))
  | u_release a (Ex : block_ended x = true) :
      nupd f s n x (set_completed (set_kids (set_block x false (block_ended x)) a true) true)
  | u_wait w : nupd f s n x (set_wait x w)
  (* a macro call returns: the Macro node completes and counts the run (run_completed, kept in wait_start) *)
  | u_call_done w : nupd f s n x (set_wait (set_completed x true) w)
  | u_cond_keep i r : nupd f s n x (set_cond x (activated x) i r)
  | u_activate (G : forced x = true \/ (memn n (e_cond_err e) = false /\ memn n (e_cond_true e) = true))
      (NC : cancelled x = false) : nupd f s n x (set_cond x true (interrupt_registered x) (run_count x))
  | u_enter (F : f = FVisit n \/ f = FThr n)
      (G : started x = true \/ (negb (completed x) && n_thr (nd p n) && negb (forced x) && memn n (e_thr_wait e)) = false) :
      nupd f s n x (set_started x true)
  | u_blank_idle (K : n_kind (nd p n) = KBlank true) : nupd f s n x (set_started x false)
  | u_blank_start (K : n_kind (nd p n) = KBlank false) : nupd f s n x (set_started x true)
  | u_reset a (K : repeats p a) (D : n = a \/ In n (descendants p a)) :
      nupd f s n x (reset_one x (n_kind (nd p n))).

  Inductive eff1 (f : frame) : S -> S -> Prop :=
  | e_node s n x : nupd f s n (st s n) x -> eff1 f s (set_ns s n x)
  | e_aux s s' : nodes s' = nodes s -> ints s' = ints s -> macros s' = macros s -> eff1 f s s'
  | e_put s n : f = FNodeTick n \/ f = FAlarmPost n -> in_ended_block p s n = false ->
      eff1 f s (with_ints s (put_int (ints s) n (serial s, [FVisit n])) (Datatypes.S (serial s)))
  | e_del s n : eff1 f s (with_ints s (del_int (ints s) n) (serial s))
  | e_mput s nm n : f = FNodeTick n -> n_kind (nd p n) = KMacro nm -> eff1 f s (with_macros s (macro_put (macros s) nm n))
  (* End block / End blocks. One effect, because the invariants about the map (C05_pending) hold before and after it, not
     in between *)
  | e_end s b : eff1 f s (end_block p s b).

  Inductive eff (f : frame) (s : S) : S -> Prop :=
  | eff_refl : eff f s s
  | eff_then s1 s2 : eff f s s1 -> eff1 f s1 s2 -> eff f s s2.

  Lemma eff_rel f (Rl : S -> S -> Prop) : (forall s, Rl s s) -> (forall a b c, Rl a b -> Rl b c -> Rl a c) ->
    (forall s s', eff1 f s s' -> Rl s s') -> forall s s', eff f s s' -> Rl s s'.
  Proof. intros Rr Rt H s s' E. induction E as [|s1 s2 _ IH E1]; [apply Rr|exact (Rt _ _ _ IH (H _ _ E1))]. Qed.

  (* eff_rel with End block taken apart into its node updates and map deletions *)
  Lemma eff_rel_fine f (Rl : S -> S -> Prop) : (forall s, Rl s s) -> (forall a b c, Rl a b -> Rl b c -> Rl a c) ->
    (forall s n x, nupd f s n (st s n) x -> Rl s (set_ns s n x)) ->
    (forall s b, Rl s (set_ns s b (set_block (st s b) (lock_acquired (st s b)) true))) ->
    (forall s s', nodes s' = nodes s -> ints s' = ints s -> macros s' = macros s -> Rl s s') ->
    (forall s n, f = FNodeTick n \/ f = FAlarmPost n -> in_ended_block p s n = false ->
                 Rl s (with_ints s (put_int (ints s) n (serial s, [FVisit n])) (Datatypes.S (serial s)))) ->
    (forall s n, Rl s (with_ints s (del_int (ints s) n) (serial s))) ->
    (forall s nm n, f = FNodeTick n -> n_kind (nd p n) = KMacro nm -> Rl s (with_macros s (macro_put (macros s) nm n))) ->
    forall s s', eff f s s' -> Rl s s'.
  Proof.
    intros Rr Rt Hn He Ha Hp Hd Hm. apply (eff_rel f Rl Rr Rt). intros s s' [s0 n x U|s0 s1 N J M|s0 n F G|s0 n|s0 nm n F K|s0 b]; auto.
    unfold end_block, abort_block_interrupts. eapply Rt; [apply He|]. apply (fold_left_rel Rl _ Rr Rt). intros s1 x.
    destruct (memn (fst x) (descendants p b)); [|apply Rr]. unfold unregister_interrupt.
    eapply Rt; [apply Hn, u_kids|]. eapply Rt; [apply Hn, u_cond_keep|apply Hd].
  Qed.

  Lemma eff_rel_nodes f (Rl : S -> S -> Prop) : (forall s, Rl s s) -> (forall a b c, Rl a b -> Rl b c -> Rl a c) ->
    (forall s n x, nupd f s n (st s n) x -> Rl s (set_ns s n x)) ->
    (forall s b, Rl s (set_ns s b (set_block (st s b) (lock_acquired (st s b)) true))) ->
    (forall s s', nodes s' = nodes s -> Rl s s') -> forall s s', eff f s s' -> Rl s s'.
  Proof. intros Rr Rt Hn He Hs. apply eff_rel_fine; auto; intros; now apply Hs. Qed.

  Section Frame.
    Variable f : frame.
    Notation eff := (eff f).

    Lemma eff_node s0 s n x : nupd f s n (st s n) x -> eff s0 s -> eff s0 (set_ns s n x).
    Proof. intros U H. exact (eff_then f s0 s _ H (e_node f s n x U)). Qed.
    Lemma eff_with_tag s0 s t : eff s0 s -> eff s0 (with_tag s t).
    Proof. intros H. refine (eff_then f s0 s _ H (e_aux f s _ _ _ _)); reflexivity. Qed.
    Lemma eff_add_mark s0 s n : eff s0 s -> eff s0 (add_mark s n).
    Proof. intros H. refine (eff_then f s0 s _ H (e_aux f s _ _ _ _)); reflexivity. Qed.
    Lemma eff_add_sched s0 s : eff s0 s -> eff s0 (add_sched s).
    Proof. intros H. refine (eff_then f s0 s _ H (e_aux f s _ _ _ _)); reflexivity. Qed.
    Lemma eff_complete s0 s n : eff s0 s -> eff s0 (complete s n).
    Proof. apply eff_node, u_completed. Qed.
    Lemma eff_mark_completed s0 s n : eff s0 s -> eff s0 (mark_completed s n).
    Proof. destruct (mark_completed_cases s n) as [->| ->]; [exact id|apply eff_complete]. Qed.
    Lemma eff_register s0 s n : f = FNodeTick n \/ f = FAlarmPost n -> eff s0 s -> eff s0 (register_interrupt p s n).
    Proof.
      intros F H. unfold register_interrupt. destruct (in_ended_block p s n) eqn:G; [exact H|].
      apply eff_node; [apply u_cond_keep|]. exact (eff_then f s0 s _ H (e_put f s n F G)).
    Qed.
    Lemma eff_unregister s0 s n : eff s0 s -> eff s0 (unregister_interrupt s n).
    Proof. intros H. refine (eff_then f s0 _ _ _ (e_del f _ n)). apply eff_node; [apply u_cond_keep|exact H]. Qed.
    Lemma eff_end_block s0 s b : eff s0 s -> eff s0 (end_block p s b).
    Proof. intros H. exact (eff_then f s0 s _ H (e_end f s b)). Qed.
    Lemma eff_reset_tree s0 s a : repeats p a -> eff s0 s -> eff s0 (reset_tree p s a).
    Proof.
      intros K H. unfold reset_tree.
      refine (proj2 (fold_left_inv_rest (fun s1 l => (forall m, In m l -> m = a \/ In m (descendants p a)) /\ eff s0 s1) _ _ _ s _)).
      - intros s1 m l [D H1]. split; [intros m' Hm; apply D; now right|].
        apply eff_node; [apply (u_reset f s1 m _ a K), D; now left|exact H1].
      - split; [intros m [<-|Hm]; auto|exact H].
    Qed.
    Lemma eff_try_activate s n s' : try_activate e s n = Some s' -> eff s s'.
    Proof.
      intros T. destruct (try_activate_cases e s n s' T) as [->|[-> [C G]]]; [apply eff_refl|].
      apply eff_node; [now apply u_activate|apply eff_refl].
    Qed.

    Lemma enter_eff n k s : f = FVisit n \/ f = FThr n -> started (st s n) = true \/ awaiting p e s n = false ->
      eff s (state_of (enter n k s)).
    Proof. intros F G. apply eff_node; [now apply u_enter|apply eff_refl]. Qed.
    Lemma thr_loop_eff n k s : f = FVisit n \/ f = FThr n -> eff s (state_of (thr_loop p e n k s)).
    Proof.
      intros F. unfold thr_loop. destruct (awaiting p e s n) eqn:Ea; [destruct (ended_here p s n k); apply eff_refl|].
      apply enter_eff; auto.
    Qed.
    Lemma block_release_eff n k s : block_ended (st s n) = true -> eff s (state_of (block_release p n k s)).
    Proof. intros Eb. apply eff_mark_completed, eff_node; [now apply u_release|apply eff_refl]. Qed.
    Lemma block_wait_end_eff n k s : eff s (state_of (block_wait_end p n k s)).
    Proof. unfold block_wait_end. destruct (block_ended (st s n)) eqn:Eb; [now apply block_release_eff|apply eff_refl]. Qed.
    Lemma block_try_eff n k s : eff s (state_of (block_try p n k s)).
    Proof.
      unfold block_try. destruct (can_lock p s n) eqn:CL; [|apply eff_refl].
      apply eff_with_tag, eff_node; [now apply u_lock|apply eff_refl].
    Qed.
    Lemma watch_await_eff b n k s : eff s (state_of (watch_await e b n k s)).
    Proof.
      unfold watch_await. destruct (activated (st s n)); [apply eff_refl|]. destruct (cancelled (st s n)); [apply eff_refl|].
      destruct (try_activate e s n) as [s'|] eqn:T; [exact (eff_try_activate s n s' T)|apply eff_refl].
    Qed.
    Lemma alarm_await_eff n k s : eff s (state_of (alarm_await e n k s)).
    Proof.
      unfold alarm_await. destruct (activated (st s n)); [apply eff_refl|].
      destruct (try_activate e s n) as [s'|] eqn:T; [exact (eff_try_activate s n s' T)|apply eff_refl].
    Qed.

    Lemma dispatch_eff b n k s : f = FNodeTick n -> eff s (state_of (dispatch p e b n k s)).
    Proof.
      intros F. unfold dispatch. destruct (n_kind (nd p n)) eqn:K.
      - (* KProgram *) destruct (completed (st s n)); apply eff_refl.
      - (* KBlank *) destruct trailing; (apply eff_node; [|apply eff_refl]); [now apply u_blank_idle|now apply u_blank_start].
      - (* KMark *) destruct (completed (st s n)); [apply eff_refl|apply eff_add_mark, eff_refl].
      - (* KBlock *) destruct (completed (st s n)) eqn:Ec; [apply eff_node; [now apply u_unlock|apply eff_refl]|].
        destruct (block_ended (st s n)) eqn:Eb; [now apply block_release_eff|]. destruct (lock_acquired (st s n)); apply eff_refl.
      - (* KEndBlock *) apply eff_mark_completed, eff_complete.
        destruct (active_blocks p s) as [|old rest]; [apply eff_refl|apply eff_end_block, eff_with_tag, eff_refl].
      - (* KEndBlocks *) apply eff_mark_completed, eff_complete, eff_with_tag.
        apply (fold_left_inv (eff s)); [intros s1 b1; apply eff_end_block|apply eff_refl].
      - (* KWatch *) destruct (negb (interrupt_registered (st s n))); [apply eff_register; [now left|apply eff_refl]|].
        destruct (negb b); [apply eff_refl|]. destruct (cancelled (st s n)); [apply eff_refl|apply watch_await_eff].
      - (* KAlarm *) destruct (negb (interrupt_registered (st s n))); [apply eff_register; [now left|apply eff_refl]|].
        destruct (negb b); [apply eff_refl|apply alarm_await_eff].
      - (* KWait *) set (s1 := set_ns s n _). assert (E1 : eff s s1) by (apply eff_node; [apply u_wait|apply eff_refl]).
        destruct (dur - 1 <? 0); [exact E1|]. destruct (_ && _); [exact E1|]. apply eff_mark_completed, eff_complete, E1.
      - (* KNoop *) destruct count as [|[|c]]; try apply eff_mark_completed; apply eff_refl.
      - (* KCmd *) apply eff_add_sched, eff_refl.
      - (* KSimple *) apply eff_mark_completed, eff_complete, eff_refl.
      - (* KError *) apply eff_node; [apply u_failed|apply eff_refl].
      - (* KInjected *) apply eff_refl.
      - (* KMacro *) destruct (interrupt_registered (st s n)); [apply eff_refl|].
        apply eff_node; [apply u_cond_keep|]. exact (eff_then f s s _ (eff_refl f s) (e_mput f s name n F K)).
      - (* KCallMacro *) destruct (macro_lookup (macros s) name) as [m|]; [|apply eff_refl].
        destruct (would_recurse p s name m); [apply eff_refl|]. destruct (n_kind (nd p m)) eqn:Km; try apply eff_refl.
        destruct (Nat.leb _ _); [|apply eff_refl]. apply eff_node; [apply u_cond_keep|]. apply eff_reset_tree; [right; eauto|apply eff_refl].
    Qed.
  End Frame.

  Theorem step_eff b f k s : eff f s (state_of (step p e b f k s)).
  Proof.
    destruct f; cbn [step].
    - (* FVisit *) destruct (completed (st s n)); [apply eff_refl|]. destruct (negb (started (st s n))) eqn:Es.
      + apply thr_loop_eff. now left.
      + apply enter_eff; [now left|]. left. now apply negb_false_iff in Es.
    - (* FThr *) apply thr_loop_eff. now right.
    - (* FNodeTick *) now apply dispatch_eff.
    - (* FVisitEnd *) apply eff_refl.
    - (* FKidsEntry *) destruct (_ || _); apply eff_refl.
    - (* FKids *) destruct (nth_error (n_children (nd p n)) i) as [c|]; [|apply eff_node; [apply u_kids|apply eff_refl]].
      destruct (_ || _); [apply eff_node; [apply u_kids|apply eff_refl]|]. destruct (Nat.ltb i _); [apply eff_refl|].
      destruct (ended_here p s c k); [apply eff_node; [apply u_kids|apply eff_refl]|apply eff_refl].
    - (* FKidsAfter *) apply eff_node; [apply u_kids|apply eff_refl].
    - (* FRet *) apply eff_refl.
    - (* FProgAfter *) apply eff_refl.
    - (* FProgIdle *) apply eff_refl.
    - (* FMark1 *) apply eff_mark_completed, eff_complete, eff_refl.
    - (* FBlankIdle *) apply eff_refl.
    - (* FBlank1 *) apply eff_complete, eff_refl.
    - (* FBlkA *) destruct (lock_acquired (st s n)); [apply eff_refl|apply block_try_eff].
    - (* FBlkWait *) destruct (lock_acquired (st s n)); [apply eff_refl|apply block_try_eff].
    - (* FBlkB *) apply eff_refl.
    - (* FBlkC *) apply block_wait_end_eff.
    - (* FBlkEnd *) apply block_wait_end_eff.
    - (* FWait *) destruct (_ && _); [|apply eff_mark_completed, eff_complete, eff_refl].
      destruct (wait_start (st s n)); [apply eff_refl|]. destruct (n_kind (nd p n)); try apply eff_refl.
      destruct (0 <? dur - 1); apply eff_refl.
    - (* FNoop *) destruct (n_kind (nd p n)); try apply eff_refl.
      destruct (Nat.ltb _ _); [apply eff_refl|apply eff_mark_completed, eff_refl].
    - (* FWatchAwait *) apply watch_await_eff.
    - (* FWatchInv *) apply eff_refl.
    - (* FWatchBody *) apply eff_mark_completed, eff_complete, eff_refl.
    - (* FAlarmAwait *) destruct (n_kind (nd p n)); try apply eff_refl. apply alarm_await_eff.
    - (* FAlarmInv *) apply eff_refl.
    - (* FAlarmBody *) apply eff_refl.
    - (* FAlarmPost *) destruct (n_kind (nd p n)) eqn:K; try apply eff_refl. cbv zeta.
      apply eff_register; [now right|]. apply eff_reset_tree; [now left|].
      apply eff_unregister, eff_node; [apply u_cond_keep|apply eff_mark_completed, eff_refl].
    - (* FInjAfter *) apply eff_mark_completed, eff_complete, eff_refl.
    - (* FMacro1 *) apply eff_mark_completed, eff_complete, eff_refl.
    - (* FCallAfter *) apply eff_mark_completed, eff_complete, eff_node; [apply u_call_done|apply eff_refl].
  Qed.
End Eff.
