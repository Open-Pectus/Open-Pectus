(* C02 / C03 / C04: who may change what, per tick and over a run, in the interpreter model. *)
From Coq Require Import ZArith List Bool Arith Lia.
From OP Require Import lib.Obs model.Interp model.InterpRun proofs.Interp_base proofs.Interp_stack proofs.Interp_inv proofs.Interp_eff proofs.Interp_fields.
Import ListNotations.
Open Scope Z_scope.

Section Who.
  Variable p : program.

  Definition is_alarm (n : nat) : bool := match n_kind (nd p n) with KAlarm | KMacro _ => true | _ => false end.
  Definition is_blank (n : nat) : bool := match n_kind (nd p n) with KBlank _ => true | _ => false end.
  Definition under_alarm (m : nat) : bool :=
    existsb (fun a => is_alarm a && (Nat.eqb a m || memn m (descendants p a))) (seq 0 (length p)).

  Lemma repeats_lt a : repeats p a -> (a < length p)%nat.
  Proof.
    intros H. apply Nat.nle_gt. intros G. unfold repeats in H. rewrite (nd_overflow p a G) in H. destruct H as [H|[nm H]]; discriminate.
  Qed.
  Lemma under_alarm_of a m : repeats p a -> (m = a \/ In m (descendants p a)) -> under_alarm m = true.
  Proof.
    intros K H. unfold under_alarm. apply existsb_exists. exists a. split.
    - apply in_seq. pose proof (repeats_lt a K). lia.
    - assert (Ia : is_alarm a = true) by (unfold is_alarm; destruct K as [K|[nm K]]; now rewrite K).
      rewrite Ia. cbn [andb]. destruct H as [->|H]; [now rewrite Nat.eqb_refl|].
      apply orb_true_iff. right. now apply memn_In.
  Qed.

  Lemma blank_kind m b : n_kind (nd p m) = KBlank b -> is_blank m = true.
  Proof. intros K. unfold is_blank. now rewrite K. Qed.

  Lemma nupd_forced e f s m x x' : nupd p e f s m x x' -> forced x' = true -> forced x = true.
  Proof. intros U. destruct U; cbn; auto. (* u_reset *) destruct (n_kind (nd p m)); cbn; discriminate. Qed.
  Lemma nupd_completed e f s m x x' : nupd p e f s m x x' -> under_alarm m = false -> completed x = true -> completed x' = true.
  Proof. intros U Ua. destruct U; cbn; auto. (* u_reset *) rewrite (under_alarm_of a m K D) in Ua. discriminate. Qed.
  Lemma nupd_started e f s m x x' : nupd p e f s m x x' -> under_alarm m = false -> is_blank m = false ->
    started x = true -> started x' = true.
  Proof.
    intros U Ua B. destruct U; cbn; auto.
    - (* u_blank_idle *) rewrite (blank_kind m _ K) in B. discriminate.
    - (* u_reset *) rewrite (under_alarm_of a m K D) in Ua. discriminate.
  Qed.
  Lemma nupd_starts e f s m x x' : nupd p e f s m x x' -> under_alarm m = false -> is_blank m = false -> started x' = true ->
    started x = true \/ ((f = FVisit m \/ f = FThr m) /\ x' = set_started x true
                         /\ (negb (completed x) && n_thr (nd p m) && negb (forced x) && memn m (e_thr_wait e)) = false).
  Proof.
    intros U Ua B. destruct U; cbn; auto.
    - (* u_enter *) destruct G; auto.
    - (* u_blank_idle *) discriminate.
    - (* u_blank_start *) rewrite (blank_kind m _ K) in B. discriminate.
    - (* u_reset *) rewrite (under_alarm_of a m K D) in Ua. discriminate.
  Qed.

  (* C02: outside Alarm / Macro bodies an instruction that has started stays started (and completed stays completed): it
     starts at most once *)
  Definition A2 (m : nat) (x x' : ns) : Prop :=
    under_alarm m = false ->
    (is_blank m = false -> started x = true -> started x' = true) /\ (completed x = true -> completed x' = true).
  Lemma A2_refl m x : A2 m x x. Proof. intros _. split; auto. Qed.
  Lemma A2_trans m x y z : A2 m x y -> A2 m y z -> A2 m x z.
  Proof. intros H1 H2 U. destruct (H1 U), (H2 U). split; auto. Qed.
  Lemma A2_end m x : A2 m x (set_block x (lock_acquired x) true). Proof. intros _. split; auto. Qed.
  Lemma A2_upd e f s m x x' : nupd p e f s m x x' -> A2 m x x'.
  Proof. intros U Ua. split; [exact (nupd_started e f s m x x' U Ua)|exact (nupd_completed e f s m x x' U Ua)]. Qed.

  Theorem run_monotone_upd upd apply : (forall s u m, A2 m (st s m) (st (apply s u) m)) ->
    forall ts main s now m, under_alarm m = false -> is_blank m = false ->
    Forall (fun s' => (started (st s m) = true -> started (st s' m) = true) /\ (completed (st s m) = true -> completed (st s' m) = true))
           (gstates p upd apply main s now ts).
  Proof.
    intros HA ts main s now m U B.
    eapply Forall_impl; [|exact (node_run p A2 A2_refl A2_trans A2_end A2_upd upd apply HA ts main s now)].
    intros s' H. destruct (H m U) as [H1 H2]. auto.
  Qed.
  Theorem run_monotone ts : forall main s now m, under_alarm m = false -> is_blank m = false ->
    Forall (fun s' => (started (st s m) = true -> started (st s' m) = true) /\ (completed (st s m) = true -> completed (st s' m) = true))
           (states p main s now ts).
  Proof. intros main s now. rewrite states_gstates. apply run_monotone_upd. intros s0 []. Qed.

  (* C03: an instruction whose threshold is still awaited in this tick is not started by this tick *)
  Definition W (e : env) (m : nat) : bool := n_thr (nd p m) && memn m (e_thr_wait e) && negb (is_blank m).
  Definition A3 (e : env) (m : nat) (x x' : ns) : Prop :=
    under_alarm m = false ->
    (completed x = true -> completed x' = true) /\ (forced x' = true -> forced x = true) /\
    (started x' = true -> started x = true \/ completed x' = true \/ forced x = true \/ W e m = false).
  Lemma A3_trans e m x y z : A3 e m x y -> A3 e m y z -> A3 e m x z.
  Proof.
    intros H1 H2 U. destruct (H1 U) as [A [B C]], (H2 U) as [D [E F]]. split; [auto|split; [auto|]].
    intros Sz. destruct (F Sz) as [Sy|[Cz|[Fy|Wm]]]; auto. destruct (C Sy) as [Sx|[Cy|[Fx|Wm]]]; auto.
  Qed.
  Lemma A3_upd e f s m x x' : nupd p e f s m x x' -> A3 e m x x'.
  Proof.
    intros U Ua. split; [exact (nupd_completed e f s m x x' U Ua)|]. split; [exact (nupd_forced e f s m x x' U)|]. intros S1.
    destruct (is_blank m) eqn:B; [right; right; right; unfold W; rewrite B; apply andb_false_r|].
    destruct (nupd_starts e f s m x x' U Ua B S1) as [S0|[_ [-> G]]]; [now left|]. cbn.
    destruct (completed x); [now right; left|]. destruct (forced x); [now right; right; left|]. right. right. right.
    unfold W. cbn in G. destruct (n_thr (nd p m)); [|reflexivity]. destruct (memn m (e_thr_wait e)); [discriminate|reflexivity].
  Qed.

  Theorem tick_threshold e rounds fuel main s main' s' raised :
    tick p rounds fuel e main s = Some (main', s', raised) -> forall m, A3 e m (st s m) (st s' m).
  Proof.
    apply (node_tick p e (A3 e)); [(* A_refl *) | exact (A3_trans e) | (* A_end *) | exact (A3_upd e)]; intros m x _; cbn; auto.
  Qed.

  (* C04: a Watch / Alarm becomes activated only in a tick in which its condition evaluated true (without an error) or it
     had been forced *)
  Definition C (e : env) (m : nat) : bool := negb (memn m (e_cond_err e)) && memn m (e_cond_true e).
  Definition A4 (e : env) (m : nat) (x x' : ns) : Prop :=
    (forced x' = true -> forced x = true) /\
    (activated x' = true -> activated x = true \/ forced x = true \/ C e m = true).
  Lemma A4_trans e m x y z : A4 e m x y -> A4 e m y z -> A4 e m x z.
  Proof. intros [A B] [D E]. split; [auto|]. intros Az. destruct (E Az) as [Ay|[Fy|Cm]]; auto. Qed.
  Lemma A4_upd e f s m x x' : nupd p e f s m x x' -> A4 e m x x'.
  Proof.
    intros U. split; [exact (nupd_forced e f s m x x' U)|]. destruct U; cbn; auto.
    - (* u_activate *) intros _. destruct G as [G|[G1 G2]]; [auto|]. right. right. unfold C. now rewrite G1, G2.
    - (* u_reset *) destruct (n_kind (nd p m)); cbn; auto; discriminate.
  Qed.

  Theorem tick_activation e rounds fuel main s main' s' raised :
    tick p rounds fuel e main s = Some (main', s', raised) -> forall m, A4 e m (st s m) (st s' m).
  Proof.
    apply (node_tick p e (A4 e)); [(* A_refl *) | exact (A4_trans e) | (* A_end *) | exact (A4_upd e)]; intros m x; split; auto.
  Qed.
End Who.
