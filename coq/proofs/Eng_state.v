(* C06: the System State is a function of the run-state flags in every reachable state of the engine model,
   for all fault-free operation sequences.  First part: the invariant, the fields it reads, and what the bodies of the
   internal commands do to it. *)
From Coq Require Import ZArith List Bool Arith Lia.
From OP Require Import lib.Obs model.Eng proofs.Eng_nf.
Import ListNotations.
Open Scope Z_scope.

Definition fsys (e : E) : sysst := if paused e then Paused else if holding e then Holding else Running.
Definition restart_in (rg : list icmd) : Prop := exists c, In c rg /\ i_name c = Restart.

(* The write flag is part of the invariant: a Stop whose image write fails ends with started = false and
   sys = Paused (stop_flags after set_error_state), which inv_stopped excludes. *)
Record Inv (e : E) : Prop := {
  inv_stopped : started e = false -> sys e = Stopped /\ paused e = false /\ holding e = false;
  inv_active : started e = true -> sys e = fsys e \/ (sys e = Restarting /\ restart_in (reg e));
  inv_reg : forall c, In c (reg e) -> i_name c = Restart -> i_cancelled c = false /\ i_complete c = false;
  inv_trk : trk e = started e;
  inv_run : (run_id e = None <-> started e = false) /\ (forall r, run_id e = Some r -> (r < next_run e)%nat);
  inv_wok : wok e = true }.

Definition core (e : E) := (started e, paused e, holding e, sys e, reg e, trk e, run_id e, next_run e, wok e).

Lemma Inv_core e e' : core e' = core e -> Inv e -> Inv e'.
Proof.
  unfold core. intros H I. inversion H as [[H1 H2 H3 H4 H5 H6 H7 H8 H9]].
  destruct I as [A B C D F W]. split; unfold fsys in *; rewrite ?H1, ?H2, ?H3, ?H4, ?H5, ?H6, ?H7, ?H8, ?H9; assumption.
Qed.

Lemma core_started e e' : core e' = core e -> started e' = started e.
Proof. unfold core. congruence. Qed.
Lemma core_sys e e' : core e' = core e -> sys e' = sys e.
Proof. unfold core. congruence. Qed.
Lemma core_reg e e' : core e' = core e -> reg e' = reg e.
Proof. unfold core. congruence. Qed.

Lemma not_stopped_started e : Inv e -> sys e <> Stopped -> started e = true.
Proof. intros I H. destruct (started e) eqn:S; [reflexivity|]. destruct (inv_stopped e I S) as [K _]. congruence. Qed.

Lemma core_fin_u e c : core (fin_u e c) = core e.
Proof. reflexivity. Qed.
Lemma core_put_u e c : core (put_u e c) = core e.
Proof. reflexivity. Qed.
Lemma core_set_out e i v : core (set_out e i v) = core e.
Proof. reflexivity. Qed.
Lemma core_schedule e r : core (schedule e r) = core e.
Proof. reflexivity. Qed.

(* what G (Eng_loop) reads: the manager's lists beside the core *)
Definition lists (e : E) := (exe e, que e, restart_pending e).
Definition gview (e : E) := (core e, lists e).

Lemma view_mark_done e m r : gview (fst (mark_done e m r)) = gview e.
Proof. destruct (mark_done_cases e m r) as [->|[d ->]]; reflexivity. Qed.
Lemma view_note_cancel_m e m r : gview (note_cancel_m e m r) = gview e.
Proof. destruct (note_cancel_m_cases e m r) as [->| ->]; reflexivity. Qed.
Lemma view_write_image e : wok e = true -> gview (write_image e) = gview e.
Proof. intros W. destruct (write_image_cases e) as [->|[_ [[_ ->]|[W' _]]]]; [reflexivity|reflexivity|congruence]. Qed.
Lemma view_update_clocks e dt : gview (update_clocks e dt) = gview e.
Proof. rewrite update_clocks_eq. reflexivity. Qed.

Lemma Inv_set_reg e rg us :
  Inv e -> (sys e = Restarting -> restart_in (reg e) -> restart_in rg) ->
  (forall c, In c rg -> i_name c = Restart -> i_cancelled c = false /\ i_complete c = false) -> Inv (set_cmds e rg us).
Proof.
  intros [A B C D F W] H1 H2. split; cbn; try assumption.
  intros S. destruct (B S) as [K|[K1 K2]]; [now left|right; auto].
Qed.

Lemma Inv_drop_i e n : Inv e -> (n <> Restart \/ sys e <> Restarting) -> Inv (drop_i e n).
Proof.
  intros I H. apply Inv_set_reg; [exact I| |].
  - intros S [c [Hin Hc]]. destruct H as [H|H]; [|contradiction]. exists c. split; [|exact Hc].
    apply filter_In. split; [exact Hin|]. rewrite Hc. destruct n; try reflexivity. congruence.
  - intros c Hc. apply filter_In in Hc as [Hc _]. now apply (inv_reg e I).
Qed.

Lemma Inv_put_i e c : Inv e -> (i_name c = Restart -> i_cancelled c = false /\ i_complete c = false) -> Inv (put_i e c).
Proof.
  intros I H. apply Inv_set_reg; [exact I| |].
  - intros _ [x [Hx1 Hx2]]. destruct (iname_eqb (i_name x) (i_name c)) eqn:E.
    + exists c. split; [|apply iname_eqb_eq in E; congruence]. apply in_map_iff. exists x. rewrite E. auto.
    + exists x. split; [|exact Hx2]. apply in_map_iff. exists x. rewrite E. auto.
  - intros x Hx Hn. apply in_map_iff in Hx as [y [Hy Hin]].
    destruct (iname_eqb (i_name y) (i_name c)); subst x; [now apply H|now apply (inv_reg e I)].
Qed.

Lemma Inv_set_flags e (pa ho sp : bool) s :
  Inv e -> started e = true ->
  s = (if pa then Paused else if ho then Holding else Running) \/ s = Restarting /\ restart_in (reg e) ->
  Inv (set_sys (upd_flags e (started e) pa ho sp) s).
Proof. intros [A B C D F W] S H. split; cbn; try assumption; [congruence|intros _; exact H]. Qed.

Lemma Inv_error_state e : Inv e -> started e = true -> Inv (set_error_state e).
Proof.
  intros I S. apply (Inv_core (set_sys (upd_flags e (started e) true (holding e) (stopping e)) Paused)); [reflexivity|].
  apply Inv_set_flags; auto.
Qed.

Lemma Inv_flags_only e st pa ho sp :
  st = started e -> pa = paused e -> ho = holding e -> Inv e -> Inv (upd_flags e st pa ho sp).
Proof. intros -> -> -> I. revert I. apply Inv_core. reflexivity. Qed.

Lemma Inv_start_body e : Inv e -> Inv (start_body e).
Proof.
  intros [A B C D F W]. split; cbn; try assumption; try tauto; [discriminate|].
  split; [split; discriminate|]. intros r K. inversion K. lia.
Qed.

Lemma Inv_restart_finish e : Inv e -> Inv (restart_finish e).
Proof. intros I. apply (Inv_core (start_body e)); [reflexivity|apply Inv_start_body, I]. Qed.

Lemma Inv_of_stopped e :
  started e = false -> paused e = false -> holding e = false -> sys e = Stopped -> trk e = false ->
  run_id e = None -> wok e = true ->
  (forall c, In c (reg e) -> i_name c = Restart -> i_cancelled c = false /\ i_complete c = false) -> Inv e.
Proof.
  intros H1 H2 H3 H4 H5 H6 H7 C. split; auto.
  - intros K. congruence.
  - congruence.
  - split; [tauto|]. intros r Q. congruence.
Qed.

Lemma restart_stop_facts e :
  started (restart_stop e) = false /\ paused (restart_stop e) = false /\ holding (restart_stop e) = false /\
  sys (restart_stop e) = Stopped /\ trk (restart_stop e) = false /\ run_id (restart_stop e) = None /\
  wok (restart_stop e) = wok e /\ reg (restart_stop e) = reg e /\ restart_pending (restart_stop e) = restart_pending e.
Proof. repeat split. Qed.

Lemma Inv_restart_stop e : Inv e -> Inv (restart_stop e).
Proof. intros I. apply Inv_of_stopped; try reflexivity; [exact (inv_wok e I)|exact (inv_reg e I)]. Qed.

Lemma stop_core_view safe e : wok e = true -> gview (stop_core safe e) = gview (restart_stop e).
Proof.
  intros W. destruct (stop_core_cases safe e) as [->|[->|[W' _]]]; [| |congruence]; rewrite stop_pre_eq; reflexivity.
Qed.
