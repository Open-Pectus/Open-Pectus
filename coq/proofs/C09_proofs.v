(* C09: the pending capture computed by mon9 from the event trace IS the engine's stored state in every reachable
   state, for all operation sequences (R9, kept by every primitive), and applying a capture to the outputs it was taken
   from gives them back (restore_capture). *)
From Coq Require Import ZArith List Bool Arith.
From OP Require Import lib.Obs lib.ListFacts model.Eng model.EngRun model.C09 proofs.Eng_nf proofs.Eng_prims.
Import ListNotations.
Open Scope Z_scope.

Lemma cap_eqb_eq a b : cap_eqb a b = true <-> a = b.
Proof. apply list_eqb_eq, (pair_eqb_eq _ _ Nat.eqb_eq Z.eqb_eq). Qed.
Lemma ocap_eqb_eq a b : ocap_eqb a b = true -> a = b.
Proof. apply (option_eqb_eq _ cap_eqb_eq). Qed.
Lemma cap_eqb_refl c : cap_eqb c c = true.
Proof. now apply cap_eqb_eq. Qed.
Lemma ocap_eqb_refl c : ocap_eqb c c = true.
Proof. apply option_eqb_refl, cap_eqb_refl. Qed.

Lemma mon9_app : app_law mon9.
Proof.
  apply (app_law_step (fun p x => mon9 p [x])); [reflexivity|]. intros p x r. destruct x; try reflexivity; cbn [mon9].
  - destruct p as [p|]; [destruct (cap_eqb captured p)|]; reflexivity.
  - now destruct (ocap_eqb restored p).
Qed.

Lemma upd_nth_app {A} (pre : list A) x l v : upd_nth (pre ++ x :: l) (length pre) v = pre ++ v :: l.
Proof. induction pre as [|y pre IH]; cbn; [reflexivity|]. now rewrite IH. Qed.

(* pre: the outputs already passed, which the capture does not name *)
Lemma restore_capture sf : forall o pre,
  apply_state (pre ++ snd (safe_from (length pre) sf o)) (fst (safe_from (length pre) sf o)) = pre ++ o.
Proof.
  induction sf as [|s sf IH]; intros o pre; [reflexivity|].
  destruct o as [|v o]; [reflexivity|]. cbn [safe_from].
  specialize (IH o (pre ++ [v])). rewrite app_length in IH. cbn [length] in IH. rewrite Nat.add_1_r in IH.
  destruct (safe_from (S (length pre)) sf o) as [c o'']. cbn [fst snd] in IH.
  rewrite <- !app_assoc in IH. cbn [app] in IH.
  destruct s as [sv|]; cbn [fst snd]; [|exact IH].
  unfold apply_state in *. cbn [fold_left fst snd]. now rewrite upd_nth_app.
Qed.

Section C09.
  Variable safe : list (option Z).
  Variable overlaps : list (list nat).

  Definition R9 : E -> Prop := tracks mon9 None (fun e p => p = prev e).

  Lemma R9_cleared e e' x : trace e' = trace e ++ [x] -> mon9 (prev e) [x] = Some None -> prev e' = None -> R9 e -> R9 e'.
  Proof. intros T M P. apply (tracks_step _ mon9_app _ _ _ _ _ T). intros p ->. exists None. now rewrite P. Qed.

  Lemma R9_unpause e : R9 e -> R9 (unpause_body e).
  Proof. rewrite unpause_body_eq. eapply R9_cleared; try reflexivity. cbn [mon9]. now rewrite ocap_eqb_refl. Qed.

  Lemma R9_pause e : R9 e -> R9 (pause_begin safe e).
  Proof.
    rewrite pause_begin_eq. eapply (tracks_step _ mon9_app); [reflexivity|]. intros p ->.
    exists (Some (stored safe e)). split; [|reflexivity]. cbn [mon9]. unfold stored.
    destruct (prev e); [now rewrite cap_eqb_refl|reflexivity].
  Qed.

  Lemma R9_prim e e' : prim safe e e' -> R9 e -> R9 e'.
  Proof.
    intros P. destruct P;
      try (autorewrite with eng_nf; apply tracks_same; [reflexivity|exact (fun _ H => H)]);
      try (autorewrite with eng_nf; eapply (tracks_quiet _ mon9_app); [reflexivity|reflexivity|exact (fun _ H => H)]).
    - (* P_write *) apply (tracks_write _ mon9_app); try reflexivity; exact (fun _ H => H).
    - apply R9_unpause.
    - apply R9_pause.
    - (* P_start *) now eapply R9_cleared.
    - (* P_stop *) intros H.
      apply (tracks_write _ mon9_app) with (e := stop_pre safe e); try reflexivity; try exact (fun _ H => H).
      revert H. rewrite stop_pre_eq. now eapply R9_cleared.
    - (* P_restart_stop *) now eapply R9_cleared.
    - (* P_restart_finish *) now eapply R9_cleared.
  Qed.

  Lemma R9_boot n outs0 : R9 (boot safe (init n outs0)).
  Proof. rewrite boot_eq. now exists None. Qed.

  Theorem R9_reachable n outs0 ops :
    let e := fold_left (fun e o => fst (step safe overlaps e o)) ops (boot safe (init n outs0)) in
    mon9 None (trace e) = Some (prev e).
  Proof. destruct (invariant_by_prims safe overlaps R9 R9_prim ops _ (R9_boot n outs0)) as [p [M ->]]. exact M. Qed.

  (* i.e. every Unpause in every execution applies exactly the pending capture *)
  Corollary monitor_never_fails n outs0 ops :
    mon9 None (trace (fold_left (fun e o => fst (step safe overlaps e o)) ops (boot safe (init n outs0)))) <> None.
  Proof. rewrite (R9_reachable n outs0 ops). discriminate. Qed.

  Lemma pause_unpause_outs e : prev e = None -> outs (unpause_body (pause_begin safe e)) = outs e.
  Proof.
    intros Hp. rewrite unpause_body_eq. cbn [outs set_clk set_io]. rewrite pause_begin_eq.
    cbn [prev outs set_clk emit set_io]. unfold stored. rewrite Hp. exact (restore_capture safe (outs e) []).
  Qed.
End C09.
