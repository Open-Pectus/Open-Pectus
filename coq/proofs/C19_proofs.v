(* C19: proofs about the analyzers' decision logic (case analysis over the facts they test). *)
From Coq Require Import List Bool Arith.
From OP Require Import lib.Obs lib.ListFacts model.C19.
Import ListNotations.

Lemma resolve_undefined l : l_defined l = false -> resolve l = LSuggest \/ resolve l = LUnknown.
Proof. intros H. unfold resolve. rewrite H. destruct (_ && _); auto. Qed.

Lemma resolve_defined l : l_defined l = true -> resolve l = LFound.
Proof. intros H. unfold resolve. now rewrite H. Qed.

(* The proofs follow the analyzers down their decision trees, one case per leaf, in the order the code tests the
   facts; splitting on all thirteen facts at once gives 2^13 cases. *)
Inductive resolved (l : lookup) : lres -> Prop :=
| RFound : l_defined l = true -> resolved l LFound
| RSuggest : l_defined l = false -> resolved l LSuggest
| RUnknown : l_defined l = false -> resolved l LUnknown.

Lemma resolve_cases l : resolved l (resolve l).
Proof.
  destruct (l_defined l) eqn:D; [rewrite (resolve_defined _ D); now constructor|].
  destruct (resolve_undefined _ D) as [-> | ->]; now constructor.
Qed.

Inductive tagged_leaf (missing : diag) (c : cond) : diag -> Prop :=
| TAbsent : c_present c = false -> tagged_leaf missing c missing
| TBlank : c_present c = true -> c_tag_blank c = true -> tagged_leaf missing c DMissingTag
| TSuggest : c_present c = true -> c_tag_blank c = false -> l_defined (c_lookup c) = false -> tagged_leaf missing c DSuggestTag
| TUnknown : c_present c = true -> c_tag_blank c = false -> l_defined (c_lookup c) = false -> tagged_leaf missing c DUndefinedTag
| TNoOperator : c_present c = true -> c_tag_blank c = false -> l_defined (c_lookup c) = true -> c_op_ok c = false ->
    tagged_leaf missing c DMissingOperator
| TNoValue : c_present c = true -> c_tag_blank c = false -> l_defined (c_lookup c) = true -> c_op_ok c = true ->
    c_value_empty c = true -> tagged_leaf missing c DMissingValue
| TUnits : c_present c = true -> c_tag_blank c = false -> l_defined (c_lookup c) = true -> c_op_ok c = true ->
    c_value_empty c = false -> tagged_leaf missing c (unit_checks c).

Lemma analyze_tagged_leaf missing c : tagged_leaf missing c (analyze_tagged missing c).
Proof.
  unfold analyze_tagged.
  destruct (c_present c) eqn:P; [|now constructor].
  destruct (c_tag_blank c) eqn:B; [now constructor|].
  destruct (resolve_cases (c_lookup c)) as [D|D|D]; [|now constructor..].
  destruct (c_op_ok c) eqn:O; [|now constructor].
  destruct (c_value_empty c) eqn:V; now constructor.
Qed.

Lemma unit_checks_no_crash c : diag_eqb (unit_checks c) DCrash = false /\ diag_eqb (unit_checks c) DMisplaced = false.
Proof.
  unfold unit_checks. now destruct (c_tag_unit c), (c_cond_unit c), (c_rhs_is_unit c), (c_unit_error c), (c_comparable c).
Qed.

Lemma tagged_ok missing l c : l = LCond c \/ l = LSim c -> missing = DConditionMissing \/ missing = DAssignmentMissing ->
  line_ok l (analyze_tagged missing c) = true.
Proof.
  intros L M.
  assert (E : forall d, line_ok l d = line_ok (LCond c) d) by (destruct L; subst l; reflexivity).
  rewrite E. unfold line_ok, undefined_name, incomplete.
  destruct (analyze_tagged_leaf missing c) as [P|P B|P B D|P B D|P B D O|P B D O V|P B D O V].
  - rewrite P. destruct M; subst missing; reflexivity.
  - rewrite P, B. reflexivity.
  - rewrite P, B, D. reflexivity.
  - rewrite P, B, D. reflexivity.
  - rewrite P, B, D, O. reflexivity.
  - rewrite P, B, D, O, V. reflexivity.
  - destruct (unit_checks_no_crash c) as [-> ->]. rewrite P, B, D, O, V. reflexivity.
Qed.

Theorem line_always_ok l :
  line_ok l (match l with LCond c => analyze_condition c | LSim c => analyze_simulate c | LSimOff o => analyze_simoff o
                        | LCmd k => analyze_command k end) = true.
Proof.
  destruct l as [c|c|o|k].
  - apply tagged_ok; auto.
  - apply tagged_ok; auto.
  - unfold line_ok, analyze_simoff, undefined_name, incomplete. destruct (o_blank o); [reflexivity|].
    destruct (resolve_cases (o_lookup o)) as [D|D|D]; rewrite D; reflexivity.
  - unfold line_ok, analyze_command, undefined_name, incomplete.
    destruct (resolve_cases (k_lookup k)) as [D|D|D]; rewrite D; [|reflexivity..].
    destruct (k_noargs_with_arg k); [reflexivity|]. destruct (k_args_valid k); reflexivity.
Qed.

Theorem run_holds i : holds_b i (run i) = true.
Proof.
  unfold holds_b, run. rewrite map_length, Nat.eqb_refl, andb_true_r, combine_map_r.
  apply forallb_forall. intros ld Hin. apply in_map_iff in Hin as [l [<- _]]. apply line_always_ok.
Qed.

Example old_code_crashed :
  analyze_condition_old {| c_present := true; c_tag_blank := false;
                           c_lookup := {| l_defined := false; l_long := true; l_any := true; l_similar := false |};
                           c_op_ok := true; c_value_empty := false; c_tag_unit := false; c_cond_unit := false;
                           c_rhs_is_unit := false; c_unit_error := false; c_comparable := false |} = DCrash.
Proof. reflexivity. Qed.
