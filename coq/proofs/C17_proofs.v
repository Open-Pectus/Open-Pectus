(* C17: the indentation pass of the parser. The pass's own state determines the indentation level of the body being read
   (body_level); what a line does to the stack of open scopes does not depend on the branch taken (step_stack_effect),
   which gives the parent theorem; on well-indented text the pass computes the off-side nesting (step_ws, step_nonws). *)
From Coq Require Import List Bool Arith Lia.
From OP Require Import model.C17.
Import ListNotations.

Lemma nest_from_length ls : forall s i, length (nest_from s i ls) = length ls.
Proof.
  induction ls as [|ln ls IH]; intros s i; cbn [nest_from]; [reflexivity|].
  destruct (step s i ln) as [s' r]. cbn. now rewrite IH.
Qed.

(* a comparison of step, decided by arithmetic: each use names the test it settles *)
Lemma ltb_true a b : a < b -> (a <? b) = true.
Proof. apply Nat.ltb_lt. Qed.
Lemma ltb_false a b : b <= a -> (a <? b) = false.
Proof. apply Nat.ltb_ge. Qed.
Lemma eqb_false a b : a <> b -> (a =? b) = false.
Proof. apply Nat.eqb_neq. Qed.

Definition top (stk : list (nat * nat)) : option nat :=
  match stk with [] => None | (j, _) :: _ => Some j end.

Lemma outdent_incl n : forall stk, incl (fst (outdent n stk)) stk.
Proof.
  induction n as [|n IH]; intros [|y stk]; cbn; try apply incl_refl. apply incl_tl, IH.
Qed.

(* what one line does to the parent chain, whichever branch step takes *)
Definition stack_effect (s : st) (i : nat) (ln : line) (r : st * (option nat * bool)) : Prop :=
  exists stk1, incl stk1 (stack s) /\ fst (snd r) = top stk1 /\
    (stack (fst r) = stk1 \/ l_kind ln = O /\ stack (fst r) = (i, l_char ln) :: stk1).

Lemma step_stack_effect s i ln : stack_effect s i ln (step s i ln).
Proof.
  assert (Hpush : forall stk1 p inc fl, incl stk1 (stack s) ->
    stack_effect s i ln ({| prev_indent := p; incr := inc;
                            stack := if is_opener (l_kind ln) then (i, l_char ln) :: stk1 else stk1 |}, (top stk1, fl))).
  { intros stk1 p inc fl Hs. exists stk1. cbn. destruct (l_kind ln); cbn; auto 6. }
  assert (Hkeep : forall p inc fl,
    stack_effect s i ln ({| prev_indent := p; stack := stack s; incr := inc |}, (top (stack s), fl))).
  { intros p inc fl. exists (stack s). cbn. auto using incl_refl. }
  unfold step.
  destruct (l_err ln); [apply Hpush, incl_refl|].
  destruct (_ && _); [apply Hpush, incl_refl|].
  destruct (_ =? _); [apply Hpush, incl_refl|].
  destruct (_ && _); [apply Hpush, incl_refl|].
  destruct (_ <? _); [apply Hkeep|].
  destruct (_ <? _); [|apply Hkeep].
  destruct (is_ws (l_kind ln)); [apply Hpush, incl_refl|].
  pose proof (outdent_incl ((prev_indent s - l_char ln) / 4) (stack s)) as Hs.
  destruct (outdent _ _) as [stk1 bad]. apply Hpush, Hs.
Qed.

(* the condition of step's "one level below the parent" branch *)
Definition indents (s : st) (c : nat) : bool :=
  (c =? parent_char s + 4) && negb (match stack s with [] => true | _ => false end).

Lemma step_same s i ln : l_err ln = false -> l_char ln = prev_indent s ->
  step s i ln = ({| prev_indent := l_char ln;
                    stack := if is_opener (l_kind ln) then (i, l_char ln) :: stack s else stack s;
                    incr := is_opener (l_kind ln) |}, (top (stack s), false)).
Proof.
  intros He Hc. unfold step. rewrite He, <- Hc, Nat.ltb_irrefl, Nat.eqb_refl. cbn.
  now destruct (is_ws (l_kind ln)).
Qed.

Lemma step_indent s i ln : l_err ln = false -> incr s = true -> indents s (l_char ln) = true ->
  l_char ln <> prev_indent s ->
  step s i ln = ({| prev_indent := if is_ws (l_kind ln) then prev_indent s else l_char ln;
                    stack := if is_opener (l_kind ln) then (i, l_char ln) :: stack s else stack s;
                    incr := is_opener (l_kind ln) || is_ws (l_kind ln) |}, (top (stack s), false)).
Proof.
  intros He Hi Hc Hp. unfold step. fold (indents s (l_char ln)).
  rewrite He, Hi, andb_false_r, (eqb_false (l_char ln) (prev_indent s) Hp), Hc. cbn.
  now destruct (is_opener (l_kind ln)), (is_ws (l_kind ln)).
Qed.

Lemma step_keep s i ln : l_err ln = false -> incr s = true -> indents s (l_char ln) = false ->
  prev_indent s < l_char ln <= prev_indent s + 4 ->
  step s i ln = ({| prev_indent := if is_ws (l_kind ln) then prev_indent s else l_char ln;
                    stack := stack s; incr := true |}, (top (stack s), false)).
Proof.
  intros He Hi Hc [Hlt Hle]. unfold step. fold (indents s (l_char ln)).
  rewrite He, Hi, andb_false_r, (eqb_false (l_char ln) (prev_indent s)), Hc,
    (ltb_false (prev_indent s + 4) (l_char ln)), (ltb_false (l_char ln) (prev_indent s)) by lia.
  reflexivity.
Qed.

Lemma step_outdent s i ln : l_err ln = false -> indents s (l_char ln) = false ->
  l_char ln < prev_indent s ->
  step s i ln =
  let '(stk1, bad) := if is_ws (l_kind ln) then (stack s, false)
                      else outdent ((prev_indent s - l_char ln) / 4) (stack s) in
  ({| prev_indent := if bad then prev_indent s else if is_ws (l_kind ln) then prev_indent s else l_char ln;
      stack := if is_opener (l_kind ln) then (i, l_char ln) :: stk1 else stk1;
      incr := is_opener (l_kind ln) |}, (top stk1, bad)).
Proof.
  intros He Hc Hlt. unfold step. fold (indents s (l_char ln)).
  rewrite He, (ltb_false (prev_indent s) (l_char ln)), (eqb_false (l_char ln) (prev_indent s)), Hc,
    (ltb_false (prev_indent s + 4) (l_char ln)), (ltb_true (l_char ln) (prev_indent s)) by lia.
  destruct (is_ws (l_kind ln)); [reflexivity|]. now destruct (outdent _ _).
Qed.

Definition earlier_opener (all : list line) (i p : nat) : Prop :=
  p < i /\ exists lp, nth_error all p = Some lp /\ l_kind lp = O.

Definition stack_ok (all : list line) (i : nat) (stk : list (nat * nat)) : Prop :=
  forall j c, In (j, c) stk -> earlier_opener all i j.

Lemma step_parent all s i ln :
  nth_error all i = Some ln -> stack_ok all i (stack s) ->
  let '(s', (par, _)) := step s i ln in
  stack_ok all (S i) (stack s') /\ match par with None => True | Some p => earlier_opener all i p end.
Proof.
  intros Hnth Hok. destruct (step_stack_effect s i ln) as (stk1 & Hsub & Hpar & Hstk).
  destruct (step s i ln) as [s' [par fl]]. cbn [fst snd] in *. subst par.
  assert (Hok1 : stack_ok all (S i) stk1).
  { intros j c Hin. destruct (Hok j c (Hsub _ Hin)) as [Hlt Hj]. split; [lia|exact Hj]. }
  split.
  - destruct Hstk as [-> | [Hk ->]]; [exact Hok1|].
    intros j c [E | Hin]; [|exact (Hok1 j c Hin)]. inversion E; subst. split; [lia|]. now exists ln.
  - destruct stk1 as [|[j c] t]; [exact I|]. apply (Hok j c), Hsub. now left.
Qed.

Lemma nest_from_parents all ls : forall s i,
  (forall k ln, nth_error ls k = Some ln -> nth_error all (i + k) = Some ln) ->
  stack_ok all i (stack s) ->
  forall k par flag, nth_error (nest_from s i ls) k = Some (par, flag) ->
  match par with None => True | Some p => earlier_opener all (i + k) p end.
Proof.
  induction ls as [|ln ls IH]; intros s i Hall Hok k par flag Hk; [destruct k; discriminate|].
  cbn [nest_from] in Hk. pose proof (step_parent all s i ln) as Hs.
  assert (Hn : nth_error all i = Some ln) by (rewrite <- (Nat.add_0_r i); apply Hall; reflexivity).
  specialize (Hs Hn Hok). destruct (step s i ln) as [s' [par0 flag0]]. destruct Hs as [Hok' Hp].
  destruct k as [|k]; cbn in Hk.
  - inversion Hk; subst. rewrite Nat.add_0_r. exact Hp.
  - rewrite <- Nat.add_succ_comm. eapply (IH s' (S i)); [|exact Hok'|exact Hk].
    intros k' ln' Hk'. rewrite Nat.add_succ_comm. exact (Hall (S k') ln' Hk').
Qed.

(* B = body level of the innermost open body (4 * depth); inc = the last instruction line opened it *)
Fixpoint wi_from (B : nat) (inc : bool) (ls : list line) : bool :=
  match ls with
  | [] => true
  | ln :: ls' =>
      let c := l_char ln in
      negb (l_err ln) &&
      match l_kind ln with
      | W => (if inc then (B - 4 <? c) && (c <=? B) else c <=? B) && wi_from B inc ls'
      | O => (if inc then c =? B else (c <=? B) && (c mod 4 =? 0)) && wi_from (c + 4) true ls'
      | L => (if inc then c =? B else (c <=? B) && (c mod 4 =? 0)) && wi_from c false ls'
      end
  end.
Definition well_indented (ls : list line) : bool := wi_from 0 false ls.

Fixpoint chain (stk : list (nat * nat)) (B : nat) : Prop :=
  match stk with [] => B = 0 | (_, c) :: t => B = c + 4 /\ chain t c end.

Lemma chain_mod stk : forall B, chain stk B -> B mod 4 = 0.
Proof.
  induction stk as [|[j c] t IH]; intros B H; cbn in H; [subst; reflexivity|].
  destruct H as [-> H]. specialize (IH c H). rewrite Nat.add_mod by lia. rewrite IH. reflexivity.
Qed.

Lemma chain_indents s B : chain (stack s) B ->
  (0 < B -> indents s B = true) /\ (forall c, c <> B -> indents s c = false).
Proof.
  unfold indents, parent_char. destruct (stack s) as [|[j c0] t]; cbn [chain].
  - intros ->. split; [lia|]. intros c _. apply andb_false_r.
  - intros [-> _]. split; [now rewrite Nat.eqb_refl|]. intros c E. now rewrite (eqb_false c (c0 + 4) E).
Qed.

Lemma close_keep stk B c : chain stk B -> B <= c -> close c stk = stk.
Proof.
  destruct stk as [|[j cj] t]; intros H Hle; [reflexivity|]. cbn in *. destruct H as [-> _].
  now rewrite (proj2 (Nat.leb_gt _ _)) by lia.
Qed.

Lemma outdent_close stk : forall B c m,
  chain stk B -> B = c + 4 * m -> outdent m stk = (close c stk, false) /\ chain (close c stk) c.
Proof.
  induction stk as [|[j cj] t IH]; intros B c m H E; cbn in H.
  - subst B. assert (m = 0) by lia. assert (c = 0) by lia. subst. cbn. auto.
  - destruct H as [HB Ht]. destruct m as [|m]; cbn [outdent close].
    + rewrite (proj2 (Nat.leb_gt _ _)) by lia. replace c with B by lia. cbn. auto.
    + rewrite (proj2 (Nat.leb_le _ _)) by lia. apply (IH cj c m Ht). lia.
Qed.

Lemma div4_exact B c : B mod 4 = 0 -> c mod 4 = 0 -> c <= B -> B = c + 4 * ((B - c) / 4).
Proof.
  intros HB Hc Hle. pose proof (Nat.div_mod_eq B 4). pose proof (Nat.div_mod_eq c 4).
  pose proof (Nat.div_mod_eq (B - c) 4). pose proof (Nat.mod_upper_bound (B - c) 4). lia.
Qed.

(* links step's state to the arguments of wi_from *)
Definition body_level (s : st) (B : nat) : Prop :=
  chain (stack s) B /\ B = prev_indent s + (if incr s then 4 else 0).

Lemma step_ws s B i ln : body_level s B -> l_err ln = false -> l_kind ln = W ->
  (if incr s then (B - 4 <? l_char ln) && (l_char ln <=? B) else l_char ln <=? B) = true ->
  step s i ln = (s, (top (stack s), false)).
Proof.
  intros [Hch HB] He Ek Hc. destruct (chain_indents s B Hch) as [Hat Hoff].
  destruct s as [p stk inc], ln as [c k e]. cbn [prev_indent stack incr l_char l_kind l_err] in *. subst k e.
  destruct inc.
  - apply andb_true_iff in Hc as [H1%Nat.ltb_lt H2%Nat.leb_le]. destruct (Nat.eq_dec c B) as [->|E].
    + rewrite step_indent; [reflexivity.. | apply Hat; lia | cbn; lia].
    + rewrite step_keep; [reflexivity.. | exact (Hoff c E) | cbn; lia].
  - apply Nat.leb_le in Hc. destruct (Nat.eq_dec c p) as [->|E].
    + rewrite step_same; reflexivity.
    + rewrite step_outdent; [reflexivity.. | apply (Hoff c); lia | cbn; lia].
Qed.

(* an instruction line; the O and L cases differ only in is_opener k *)
Lemma step_nonws s B i ln k : body_level s B -> l_err ln = false -> l_kind ln = k -> is_ws k = false ->
  (if incr s then l_char ln =? B else (l_char ln <=? B) && (l_char ln mod 4 =? 0)) = true ->
  let stk1 := close (l_char ln) (stack s) in
  let s' := {| prev_indent := l_char ln; stack := if is_opener k then (i, l_char ln) :: stk1 else stk1;
               incr := is_opener k |} in
  step s i ln = (s', (top stk1, false)) /\ body_level s' (if is_opener k then l_char ln + 4 else l_char ln).
Proof.
  intros [Hch HB] He <- Hw Hc. destruct (chain_indents s B Hch) as [Hat Hoff].
  assert (l_char ln <= B /\ l_char ln mod 4 = 0) as [Hle H4].
  { destruct (incr s).
    - apply Nat.eqb_eq in Hc. rewrite Hc. eauto using chain_mod.
    - apply andb_true_iff in Hc as [H1%Nat.leb_le H2%Nat.eqb_eq]. auto. }
  destruct (outdent_close _ _ _ _ Hch (div4_exact _ _ (chain_mod _ _ Hch) H4 Hle)) as [Hout Hch1].
  cbn zeta. split.
  - destruct (Nat.eq_dec (l_char ln) B) as [<-|E].
    + rewrite (close_keep _ _ _ Hch (le_n _)). destruct (incr s) eqn:Hi.
      * rewrite (step_indent s i ln He Hi (Hat ltac:(lia))) by lia. now rewrite Hw, orb_false_r.
      * rewrite (step_same s i ln He) by lia. reflexivity.
    + destruct (incr s); [apply Nat.eqb_eq in Hc; contradiction|]. rewrite Nat.add_0_r in HB. subst B.
      rewrite (step_outdent s i ln He (Hoff _ E)) by lia. now rewrite Hw, Hout.
  - split; cbn [stack prev_indent incr]; destruct (is_opener (l_kind ln)); cbn; auto.
Qed.

Lemma nest_wi ls : forall s B i, body_level s B -> wi_from B (incr s) ls = true ->
  nest_from s i ls = map (fun p => (p, false)) (spec_from (stack s) i ls).
Proof.
  induction ls as [|ln ls IH]; intros s B i HI Hwi; [reflexivity|].
  cbn [wi_from] in Hwi. apply andb_true_iff in Hwi as [He%negb_true_iff Hwi].
  cbn [nest_from spec_from].
  destruct (l_kind ln) eqn:Ek; apply andb_true_iff in Hwi as [Hc Hwi].
  1: rewrite (step_ws s B i ln HI He Ek Hc).
  2,3: destruct (step_nonws s B i ln _ HI He Ek eq_refl Hc) as [-> HI'].
  all: cbn [map]; f_equal; eapply IH; eassumption.
Qed.

Lemma well_indented_spec ls :
  well_indented ls = true -> nest ls = map (fun p => (p, false)) (nest_spec ls).
Proof. apply (nest_wi ls init 0 0). split; reflexivity. Qed.
