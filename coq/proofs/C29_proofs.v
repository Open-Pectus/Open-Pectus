(* Proofs about plot-log persistence (model/C29.v): one invariant on the recorded rows, kept by every message.
   It turns on the new batch time h being the latest tag time: the old rows lie at or before the previous
   batch time, hence more than the interval before h and before every tag persisted now. *)
From Coq Require Import ZArith List Bool Arith Lia.
From OP Require Import lib.Obs lib.ListFacts model.C29.
Import ListNotations.
Open Scope Z_scope.

Fixpoint pairwise {A} (R : A -> A -> Prop) (l : list A) : Prop :=
  match l with [] => True | x :: l' => Forall (R x) l' /\ pairwise R l' end.

Lemma pairwise_app {A} (R : A -> A -> Prop) l1 l2 :
  pairwise R l1 -> pairwise R l2 -> (forall x y, In x l1 -> In y l2 -> R x y) -> pairwise R (l1 ++ l2).
Proof.
  intros H1 H2 Hc. induction l1 as [|x l1 IH]; cbn; [exact H2|]. destruct H1 as [Hx H1]. split.
  - apply Forall_app. split; [exact Hx|]. apply Forall_forall. intros y Hy. apply Hc; [now left|exact Hy].
  - apply IH; [exact H1|]. intros a b Ha. apply Hc. now right.
Qed.

Lemma pairwise_nodup {A B} (f : A -> B) (R : A -> A -> Prop) l :
  NoDup (map f l) -> (forall x y, In x l -> In y l -> f x <> f y -> R x y) -> pairwise R l.
Proof.
  induction l as [|x l IH]; cbn; intros Hnd H; [exact I|]. inversion Hnd as [|? ? Hx Hl]; subst. split.
  - apply Forall_forall. intros y Hy. apply H; [now left|now right|]. intros E. apply Hx. rewrite E. now apply in_map.
  - apply IH; [exact Hl|]. intros a b Ha Hb. apply H; now right.
Qed.

Lemma max_time_spec ts : forall acc,
  (max_time ts acc = acc \/ exists t, In t ts /\ r_time t = max_time ts acc) /\
  acc <= max_time ts acc /\ forall t, In t ts -> r_time t <= max_time ts acc.
Proof.
  induction ts as [|t ts IH]; intros acc; cbn; [split; [now left|split; [lia|tauto]]|].
  destruct (IH (Z.max acc (r_time t))) as [H1 [H2 H3]]. split; [|split; [lia|]].
  - destruct H1 as [E|[t' [Hin E]]]; [|right; exists t'; auto].
    rewrite E. destruct (Z.max_spec acc (r_time t)) as [[_ ->]|[_ ->]]; [right; exists t; auto|now left].
  - intros t' [<-|Hin]; [lia|auto].
Qed.

Lemma maxt_spec ts m : maxt ts = Some m ->
  (exists t, In t ts /\ r_time t = m) /\ (forall t, In t ts -> r_time t <= m).
Proof.
  destruct ts as [|t ts]; cbn; [discriminate|]. intros [= <-].
  destruct (max_time_spec ts (r_time t)) as [H1 [H2 H3]]. split.
  - destruct H1 as [E|[t' [Hin E]]]; [exists t|exists t']; auto.
  - intros t' [<-|Hin]; auto.
Qed.

Fixpoint spaced (i : Z) (rs : list row) : Prop :=
  match rs with
  | [] => True
  | w :: rs' => Forall (fun w' => w_time w' = w_time w \/ i < w_time w' - w_time w) rs' /\ spaced i rs'
  end.

Fixpoint never_older (rs : list row) : Prop :=
  match rs with
  | [] => True
  | w :: rs' => Forall (fun w' => w_name w' = w_name w -> w_engine_time w < w_engine_time w') rs'
                /\ never_older rs'
  end.

(* hist is any list holding every report received so far *)
Record Inv (i : Z) (hist : list report) (s : st) : Prop := {
  i_bound : match lp s with
            | Some l => Forall (fun w => w_time w <= l /\ w_engine_time w <= l) (rows s)
            | None => rows s = [] end;
  i_spaced : spaced i (rows s);
  i_older : never_older (rows s);
  i_hist : forall t, In t (tags s) -> In t hist;
  i_faithful : Forall (fun w => w_engine_time w <= w_time w /\
                 In {| r_name := w_name w; r_val := w_val w; r_time := w_engine_time w |} hist) (rows s)
}.

Lemma spaced_pairwise i rs :
  spaced i rs = pairwise (fun w w' => w_time w' = w_time w \/ i < w_time w' - w_time w) rs.
Proof. induction rs as [|w rs IH]; cbn; [reflexivity|now rewrite IH]. Qed.

Lemma never_older_pairwise rs :
  never_older rs = pairwise (fun w w' => w_name w' = w_name w -> w_engine_time w < w_engine_time w') rs.
Proof. induction rs as [|w rs IH]; cbn; [reflexivity|now rewrite IH]. Qed.

Lemma upsert_in ts r t : In t (upsert ts r) -> t = r \/ In t ts.
Proof.
  induction ts as [|x ts IH]; cbn; [intuition|].
  destruct (Nat.eqb (r_name x) (r_name r)); cbn; intuition.
Qed.

Lemma upsert_names ts r : NoDup (map r_name ts) -> NoDup (map r_name (upsert ts r)).
Proof.
  induction ts as [|x ts IH]; cbn; intros H; [constructor; [tauto|constructor]|].
  inversion H as [|a l Hnin Hnd]; subst. destruct (Nat.eqb (r_name x) (r_name r)) eqn:E; cbn.
  - apply Nat.eqb_eq in E. rewrite <- E. now constructor.
  - apply Nat.eqb_neq in E. constructor; [|auto]. intros Hin. apply in_map_iff in Hin as [t [Et Ht]].
    apply upsert_in in Ht as [->|Ht]; [congruence|]. apply Hnin. rewrite <- Et. now apply in_map.
Qed.

Lemma fold_upsert_in msg : forall ts t, In t (fold_left upsert msg ts) -> In t msg \/ In t ts.
Proof.
  induction msg as [|r msg IH]; intros ts t H; cbn in *; [now right|].
  apply IH in H as [H|H]; [left; now right|]. apply upsert_in in H as [->|H]; [left; now left|now right].
Qed.
Lemma fold_upsert_names msg ts : NoDup (map r_name ts) -> NoDup (map r_name (fold_left upsert msg ts)).
Proof. apply (fold_left_inv (fun ts => NoDup (map r_name ts))). intros ts' r. apply upsert_names. Qed.

Definition interval_ok (interval : option Z) : Prop :=
  match interval with Some i => 0 <= i | None => True end.
Definition ival (interval : option Z) : Z := match interval with Some i => i | None => 0 end.

(* When the latest tag is more than i after the last batch time l, it is among the tags to persist,
   so the new batch time h is that latest time. *)
Lemma persist_gap i ts l h :
  0 <= i -> (i <? match maxt ts with Some m => m | None => 0 end - l) = true ->
  maxt (filter (newer (Some l)) ts) = Some h -> i < h - l.
Proof.
  intros Hi Hex Eh. apply Z.ltb_lt in Hex. destruct (maxt ts) as [m|] eqn:Em.
  - destruct (maxt_spec _ _ Em) as [[t [Ht Et]] _]. destruct (maxt_spec _ _ Eh) as [_ Hle].
    enough (r_time t <= h) by lia. apply Hle, filter_In. split; [exact Ht|]. apply Z.ltb_lt. lia.
  - destruct ts; [discriminate Eh|discriminate Em].
Qed.

Lemma persist_inv interval entries hist s :
  interval_ok interval -> NoDup (map r_name (tags s)) ->
  Inv (ival interval) hist s -> Inv (ival interval) hist (persist interval entries s).
Proof.
  intros Hiv Hnd HI. unfold persist.
  destruct (match lp s with None => true | Some l => _ end) eqn:Eex; [|exact HI].
  destruct HI as [Hb Hs Ho Hh Hf].
  set (tp := filter (newer (lp s)) (tags s)).
  destruct (maxt tp) as [h|] eqn:Eh; [|constructor; assumption].
  destruct (maxt_spec tp h Eh) as [[tm [Htm Etm]] Hle].
  assert (Hold : Forall (fun w => ival interval < h - w_time w /\ forall t, In t tp -> w_engine_time w < r_time t) (rows s)).
  { unfold tp in *. destruct (lp s) as [l|]; [|rewrite Hb; constructor].
    destruct interval as [i|]; [|discriminate]. pose proof (persist_gap i _ l h Hiv Eex Eh) as Hgap.
    apply (Forall_impl _ (P := fun w => w_time w <= l /\ w_engine_time w <= l)); [|exact Hb]. cbn. intros w [H1 H2]. split; [lia|].
    intros t Ht. apply filter_In in Ht as [_ Ht]. apply Z.ltb_lt in Ht. lia. }
  set (new := map _ _).
  assert (Hnew : forall w, In w new -> exists t, In t tp /\
            w = {| w_name := r_name t; w_val := r_val t; w_time := h; w_engine_time := r_time t |}).
  { intros w Hw. apply in_map_iff in Hw as [t [<- Ht]]. apply filter_In in Ht as [Ht _]. now exists t. }
  assert (Hndnew : NoDup (map w_name new)).
  { unfold new. rewrite map_map. cbn. now repeat apply NoDup_map_filter. }
  assert (Hi : 0 <= ival interval) by (destruct interval; [exact Hiv|reflexivity]).
  constructor; cbn [tags lp rows raised].
  - apply Forall_app. split.
    + eapply Forall_impl; [|exact Hold]. cbn. intros w [H1 H2]. specialize (H2 tm Htm). lia.
    + apply Forall_forall. intros w Hw. destruct (Hnew w Hw) as [t [Ht ->]]. cbn. split; [lia|now apply Hle].
  - rewrite spaced_pairwise in *. apply pairwise_app; [exact Hs| |].
    + apply (pairwise_nodup w_name); [exact Hndnew|]. intros x y Hx Hy _.
      destruct (Hnew x Hx) as [t [_ ->]], (Hnew y Hy) as [t' [_ ->]]. now left.
    + intros w w' Hw Hw'. rewrite Forall_forall in Hold. destruct (Hnew w' Hw') as [t [_ ->]]. right. now apply Hold.
  - rewrite never_older_pairwise in *. apply pairwise_app; [exact Ho| |].
    + apply (pairwise_nodup w_name); [exact Hndnew|]. intros x y _ _ Hne E. now elim Hne.
    + intros w w' Hw Hw' _. rewrite Forall_forall in Hold. destruct (Hnew w' Hw') as [t [Ht ->]]. now apply Hold.
  - exact Hh.
  - apply Forall_app. split; [exact Hf|]. apply Forall_forall. intros w Hw. destruct (Hnew w Hw) as [t [Ht ->]]. cbn.
    split; [now apply Hle|]. apply Hh. apply filter_In in Ht as [Ht _]. now destruct t.
Qed.

Definition Inv_distinct (i : Z) (hist : list report) (s : st) : Prop :=
  Inv i hist s /\ NoDup (map r_name (tags s)).

Lemma persist_tags interval entries s : tags (persist interval entries s) = tags s.
Proof.
  unfold persist. destruct (match lp s with None => true | Some l => _ end); [|reflexivity].
  destruct (maxt _); reflexivity.
Qed.

Lemma message_inv interval entries hist s msg :
  interval_ok interval -> (forall t, In t msg -> In t hist) ->
  Inv_distinct (ival interval) hist s -> Inv_distinct (ival interval) hist (message interval entries s msg).
Proof.
  intros Hiv Hsub [HI Hnd]. unfold message. destruct (raised s); [now split|].
  assert (Hnd1 : NoDup (map r_name (fold_left upsert msg (tags s)))) by (apply fold_upsert_names, Hnd).
  split; [|rewrite persist_tags; exact Hnd1]. apply persist_inv; [exact Hiv|exact Hnd1|].
  destruct HI as [Hb Hs Ho Hh Hf]. constructor; cbn [tags lp rows raised]; try assumption.
  intros t Ht. apply fold_upsert_in in Ht as [Ht|Ht]; auto.
Qed.

Lemma run_inv interval entries hist msgs s :
  interval_ok interval -> (forall t, In t (concat msgs) -> In t hist) ->
  Inv_distinct (ival interval) hist s ->
  Inv_distinct (ival interval) hist (fold_left (message interval entries) msgs s).
Proof.
  intros Hiv Hsub. apply (fold_left_inv_in (Inv_distinct (ival interval) hist)). intros s' m Hm.
  apply message_inv; [exact Hiv|]. intros t Ht. apply Hsub, in_concat. now exists m.
Qed.

Lemma init_inv i hist : Inv_distinct i hist init.
Proof. split; [|constructor]. constructor; cbn; [reflexivity|exact I|exact I|contradiction|constructor]. Qed.

Lemma reachable interval entries msgs :
  interval_ok interval ->
  Inv (ival interval) (concat msgs) (run_msgs interval entries msgs).
Proof.
  intros Hiv. exact (proj1 (run_inv interval entries _ msgs init Hiv (fun t Ht => Ht) (init_inv _ _))).
Qed.

Lemma inf_one_batch entries s :
  lp s <> None -> persist None entries s = s.
Proof. unfold persist. destruct (lp s); [reflexivity|congruence]. Qed.
