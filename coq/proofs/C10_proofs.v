(* C10: run ids are handed out in order (ids10 accepts the trace of every reachable state with next_run as its count and
   the current run id below it: R10, kept by every primitive), and the steps that end a run clear the run id. *)
From Coq Require Import ZArith List Bool Arith Lia.
From OP Require Import lib.Obs model.Eng model.EngRun model.C10 proofs.Eng_nf proofs.Eng_prims.
Import ListNotations.
Open Scope Z_scope.

Lemma ids10_app : app_law ids10.
Proof.
  apply (app_law_step (fun n x => ids10 n [x])); [reflexivity|]. intros n x r. destruct x; try reflexivity.
  cbn [ids10]. now destruct (Nat.eqb rid n).
Qed.

Section C10.
  Variable safe : list (option Z).
  Variable overlaps : list (list nat).

  Definition fresh10 (e : E) (n : nat) : Prop := n = next_run e /\ forall r, run_id e = Some r -> (r < n)%nat.
  Definition R10 : E -> Prop := tracks ids10 0%nat fresh10.

  Lemma R10_started e e' : trace e' = trace e ++ [EStarted (next_run e)] -> next_run e' = S (next_run e) ->
    run_id e' = Some (next_run e) -> R10 e -> R10 e'.
  Proof.
    intros T N U. apply (tracks_step _ ids10_app _ _ _ _ _ T). intros n [-> _]. exists (S (next_run e)).
    unfold fresh10. cbn [ids10]. rewrite Nat.eqb_refl, N, U. repeat split. intros r [= <-]. lia.
  Qed.

  Lemma R10_ended e e' l : trace e' = trace e ++ l -> (forall n, ids10 n l = Some n) -> next_run e' = next_run e ->
    run_id e' = None -> R10 e -> R10 e'.
  Proof.
    intros T Q N U. apply (tracks_quiet _ ids10_app _ _ _ _ _ T Q). intros n [-> _]. unfold fresh10. rewrite N, U. split; [reflexivity|discriminate].
  Qed.

  Lemma R10_prim e e' : prim safe e e' -> R10 e -> R10 e'.
  Proof.
    intros P. destruct P;
      try (autorewrite with eng_nf; apply tracks_same; [reflexivity|exact (fun _ H => H)]);
      try (autorewrite with eng_nf; eapply (tracks_quiet _ ids10_app); [reflexivity|reflexivity|exact (fun _ H => H)]).
    - (* P_write *) apply (tracks_write _ ids10_app); try reflexivity; exact (fun _ H => H).
    - (* P_start *) now apply R10_started.
    - (* P_stop *) intros H.
      apply (tracks_write _ ids10_app) with (e := stop_pre safe e); try reflexivity; try exact (fun _ H => H).
      revert H. rewrite stop_pre_eq. now eapply R10_ended.
    - (* P_restart_stop *) now eapply R10_ended.
    - (* P_restart_finish *) now apply R10_started.
  Qed.

  Lemma R10_boot n outs0 : R10 (boot safe (init n outs0)).
  Proof.
    rewrite boot_eq. exists 0%nat. repeat split. discriminate.
  Qed.

  Theorem R10_reachable n outs0 ops :
    let e := fold_left (fun e o => fst (step safe overlaps e o)) ops (boot safe (init n outs0)) in
    ids10 0 (trace e) = Some (next_run e) /\ (forall r, run_id e = Some r -> (r < next_run e)%nat).
  Proof.
    destruct (invariant_by_prims safe overlaps R10 R10_prim ops _ (R10_boot n outs0)) as [k [M [-> B]]]. now split.
  Qed.

  Lemma stop_clears_run_id e : run_id (stop_core safe e) = None /\ started (stop_core safe e) = false.
  Proof. destruct (stop_core_cases safe e) as [->|[->|[_ ->]]]; rewrite stop_pre_eq; split; reflexivity. Qed.
  Lemma restart_clears_run_id e : run_id (restart_stop e) = None /\ started (restart_stop e) = false.
  Proof. split; reflexivity. Qed.
  Lemma restart_new_run_id e : run_id (restart_finish e) = Some (next_run e) /\ started (restart_finish e) = true.
  Proof. split; reflexivity. Qed.
End C10.
