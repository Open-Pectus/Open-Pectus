(* C33: publish notifies exactly the subscriptions of entitled users (publish_spec), each at most once. *)
From Coq Require Import List Bool Arith.
From OP Require Import lib.Obs lib.ListFacts model.C33.
Import ListNotations.

(* each of the three comprehensions keeps the rows of one scope, with that scope's clause of scope_matches *)
Lemma selected_spec prefs t u x :
  In x (selected_users prefs t u) <->
  exists p, In p prefs /\ p_user p = x /\ mem t (p_topics p) = true
            /\ has_access (u_required u) (p_roles p) = true /\ scope_matches p u = true.
Proof.
  unfold selected_users, scope_matches. rewrite !in_app_iff, !in_map_iff. split.
  - intros [(p & E & H)|[(p & E & H)|(p & E & H)]]; apply filter_In in H as [H Hc]; apply filter_In in H as [Hp Ht];
      exists p; (split; [exact Hp|]); (split; [exact E|]); (split; [exact Ht|]).
    + (* access *) destruct (p_scope p); try discriminate Hc. split; [exact Hc|reflexivity].
    + (* contributed *) destruct (p_scope p); try discriminate Hc. now apply andb_true_iff in Hc.
    + (* specific *) destruct (p_scope p); try discriminate Hc. now apply andb_true_iff in Hc.
  - intros (p & Hp & E & Ht & Ha & Hs).
    assert (K : forall f, f p = true ->
                exists p', p_user p' = x /\ In p' (filter f (filter (fun p => mem t (p_topics p)) prefs))).
    { intros f Hf. exists p. split; [exact E|]. apply filter_In. split; [apply filter_In; auto|exact Hf]. }
    destruct (p_scope p) eqn:Esc.
    + (* contributed *) right; left. apply K. now rewrite Esc, Ha, Hs.
    + (* access *) left. apply K. now rewrite Esc, Ha.
    + (* specific *) right; right. apply K. now rewrite Esc, Ha, Hs.
Qed.

Lemma entitled_spec prefs t u c x :
  entitled prefs t u c x = true <->
  In x (selected_users prefs t u) /\
  negb (Nat.eqb t new_contributor_topic && match c with Some y => Nat.eqb y x | None => false end) = true.
Proof.
  unfold entitled. rewrite andb_true_iff, selected_spec, existsb_exists. split.
  - intros [[p [Hp Hc]] Hn]. split; [|exact Hn].
    repeat (apply andb_true_iff in Hc as [Hc ?]). apply Nat.eqb_eq in Hc. exists p. auto.
  - intros [[p [Hp [E [Ht [Ha Hs]]]]] Hn]. split; [|exact Hn]. exists p. split; [exact Hp|].
    rewrite E, Nat.eqb_refl, Ht, Ha, Hs. reflexivity.
Qed.

Lemma publish_spec prefs subs t u c sid :
  In sid (publish prefs subs t u c) <-> exists x, In (sid, x) subs /\ entitled prefs t u c x = true.
Proof.
  unfold publish. rewrite in_map_iff. split.
  - intros [[sid' x] [<- H]]. apply filter_In in H as [H Hn]. apply filter_In in H as [Hs Hm].
    apply existsb_eqb_In in Hm. exists x. split; [exact Hs|]. apply entitled_spec. auto.
  - intros (x & Hin & He). apply entitled_spec in He as [Hsel Hn]. exists (sid, x). split; [reflexivity|].
    apply filter_In. split; [|exact Hn]. apply filter_In. split; [exact Hin|]. now apply existsb_eqb_In.
Qed.

Lemma publish_exact prefs subs t u c sid x :
  NoDup (map fst subs) -> In (sid, x) subs ->
  (In sid (publish prefs subs t u c) <-> entitled prefs t u c x = true).
Proof.
  intros Hnd Hin. rewrite publish_spec. split; [|eauto].
  intros (x' & Hin' & He). now injection (NoDup_map_inj fst _ _ _ Hnd Hin Hin' eq_refl) as ->.
Qed.

Lemma publish_at_most_once prefs subs t u c :
  NoDup (map fst subs) -> NoDup (publish prefs subs t u c).
Proof. intros H. unfold publish. now repeat apply NoDup_map_filter. Qed.

Lemma not_to_new_contributor prefs subs u c sid :
  In (sid, c) subs -> NoDup (map fst subs) ->
  ~ In sid (publish prefs subs new_contributor_topic u (Some c)).
Proof.
  intros Hin Hnd H. apply (publish_exact prefs subs _ u (Some c) sid c Hnd Hin) in H.
  unfold entitled in H. apply andb_true_iff in H as [_ H]. rewrite !Nat.eqb_refl in H. discriminate.
Qed.

Lemma publish_subset prefs subs t u c sid : In sid (publish prefs subs t u c) -> In sid (map fst subs).
Proof. intros H. apply publish_spec in H as (x & Hin & _). exact (in_map fst _ _ Hin). Qed.
