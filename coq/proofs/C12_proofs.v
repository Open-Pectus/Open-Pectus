(* C12 (node level): requests and their effects in the interpreter model. *)
From Coq Require Import ZArith List Bool Arith Lia.
From OP Require Import lib.Obs model.Interp model.InterpRun model.C12 proofs.Interp_base proofs.Interp_eff proofs.Interp_fields proofs.C02_proofs.
Import ListNotations.
Open Scope Z_scope.

Section Requests.
  Variable p : program.
  Variable fl : flags.

  Lemma request_cases s r :
    request p fl s r = (s, false)
    \/ (r_offered r = true /\ r_cancel r = true /\ cancellable p fl s (r_node r) = true
        /\ request p fl s r = (set_ns s (r_node r) (set_cf (st s (r_node r)) true (forced (st s (r_node r)))), true))
    \/ (r_offered r = true /\ r_cancel r = false /\ forcible p fl s (r_node r) = true
        /\ request p fl s r = (set_ns s (r_node r) (set_cf (st s (r_node r)) (cancelled (st s (r_node r))) true), true)).
  Proof.
    unfold request. destruct (r_offered r); [|now left]. cbn [negb].
    destruct (r_cancel r); [destruct (cancellable p fl s (r_node r))|destruct (forcible p fl s (r_node r))]; auto 6.
  Qed.

  Lemma allowed_not_cancelled s n : cancellable p fl s n = true \/ forcible p fl s n = true -> cancelled (st s n) = false.
  Proof.
    unfold cancellable, forcible. destruct (cancelled (st s n)); [|reflexivity].
    destruct (is_condnode p n); cbn; rewrite ?andb_false_r; intros [H|H]; discriminate.
  Qed.

  Lemma refused_unchanged s r s' : request p fl s r = (s', false) -> s' = s.
  Proof. intros H. destruct (request_cases s r) as [E|[[_ [_ [_ E]]]|[_ [_ [_ E]]]]]; rewrite E in H; now inversion H. Qed.
  Lemma not_offered_refused s r : r_offered r = false -> request p fl s r = (s, false).
  Proof. intros H. unfold request. now rewrite H. Qed.
  Lemma accepted_spec s r s' : request p fl s r = (s', true) -> (r_node r < length (nodes s))%nat ->
    r_offered r = true /\
    (if r_cancel r then cancellable p fl s (r_node r) = true /\ cancelled (st s' (r_node r)) = true
     else forcible p fl s (r_node r) = true /\ forced (st s' (r_node r)) = true).
  Proof.
    intros H L. destruct (request_cases s r) as [E|[[O [C [G E]]]|[O [C [G E]]]]]; rewrite E in H; inversion H; subst s'.
    all: rewrite C, st_set_ns_eq by exact L; auto.
  Qed.
  Lemma request_other s r s' a m : request p fl s r = (s', a) -> m <> r_node r -> st s' m = st s m.
  Proof.
    intros H N. destruct (request_cases s r) as [E|[[_ [_ [_ E]]]|[_ [_ [_ E]]]]]; rewrite E in H; inversion H; subst s'.
    all: auto using st_set_ns_neq.
  Qed.
End Requests.

Section Effects.
  Variable p : program.

  (* C12: a cancelled Watch (or any cancelled node outside Alarm / Macro bodies) is never activated by a tick *)
  Definition A12 (m : nat) (x x' : ns) : Prop :=
    under_alarm p m = false ->
    (cancelled x = true -> cancelled x' = true) /\ (cancelled x = true -> activated x = false -> activated x' = false).

  Lemma A12_trans m x y z : A12 m x y -> A12 m y z -> A12 m x z.
  Proof. intros H1 H2 U. destruct (H1 U) as [A B], (H2 U) as [C D]. split; [auto|]. intros Cx Ax. apply D; auto. Qed.
  Lemma A12_upd e f s m x x' : nupd p e f s m x x' -> A12 m x x'.
  Proof.
    intros U Ua. destruct U; cbn; auto.
    - (* u_activate *) split; [auto|congruence].
    - (* u_reset *) rewrite (under_alarm_of p a m K D) in Ua. discriminate.
  Qed.

  Theorem tick_cancelled e rounds fuel main s main' s' raised :
    tick p rounds fuel e main s = Some (main', s', raised) -> forall m, A12 m (st s m) (st s' m).
  Proof. apply (node_tick p e A12); [(* A_refl *) | exact A12_trans | (* A_end *) | exact (A12_upd e)]; intros m x _; split; auto. Qed.

  Lemma forced_wait_completes e b n stop k s : forced (st s n) = true ->
    step p e b (FWait n stop) k s = Yield REnd (FRet :: k) (mark_completed (complete s n) n).
  Proof. intros F. cbn [step]. rewrite F. cbn [negb]. rewrite andb_false_r. reflexivity. Qed.
  Lemma forced_not_awaiting e s n : forced (st s n) = true -> awaiting p e s n = false.
  Proof. intros F. unfold awaiting. rewrite F. cbn [negb]. now rewrite andb_false_r, andb_false_l. Qed.
  Lemma forced_enters e n k s : forced (st s n) = true -> thr_loop p e n k s = enter n k s.
  Proof. intros F. unfold thr_loop. now rewrite (forced_not_awaiting e s n F). Qed.
  Lemma forced_activates e s n : forced (st s n) = true -> cancelled (st s n) = false -> (n < length (nodes s))%nat ->
    exists s', try_activate e s n = Some s' /\ activated (st s' n) = true.
  Proof.
    intros F C L. unfold try_activate. rewrite C, F. eexists. split; [reflexivity|]. now rewrite st_set_ns_eq.
  Qed.
  Lemma cancelled_not_activated e s n : cancelled (st s n) = true -> try_activate e s n = Some s.
  Proof. intros C. unfold try_activate. now rewrite C. Qed.
End Effects.
