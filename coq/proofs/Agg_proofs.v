(* Proofs about the aggregator's run bookkeeping (model/Agg.v). C30: the plot logs stay distinct on every
   history, the recent runs on the guarded ones (invariant stored_once). C28: an engine that goes offline is
   parked -- out of the engine map, its run in the recent-engines table -- which operations on other engines
   preserve and its next registration reads back. *)
From Coq Require Import ZArith List Bool Arith.
From OP Require Import lib.Obs lib.ListFacts model.C29 model.Agg.
Import ListNotations.
Open Scope Z_scope.

Lemma er_eqb_eq a b : er_eqb a b = true <-> a = b.
Proof.
  destruct a as [e1 r1], b as [e2 r2]. unfold er_eqb. cbn.
  rewrite andb_true_iff, Nat.eqb_eq, Z.eqb_eq. split; [intros [-> ->]; reflexivity|intros H; inversion H; auto].
Qed.

Lemma existsb_er_false l p : existsb (er_eqb p) l = false -> ~ In p l.
Proof.
  intros H Hin. assert (existsb (er_eqb p) l = true); [|congruence].
  apply existsb_exists. exists p. split; [exact Hin|now apply er_eqb_eq].
Qed.

Lemma recent_runs_create d e r : recent_runs (create_plot_log d e r) = recent_runs d.
Proof. unfold create_plot_log. destruct (has_plot_log d e r); reflexivity. Qed.
Lemma recent_engines_create d e r : recent_engines (create_plot_log d e r) = recent_engines d.
Proof. unfold create_plot_log. destruct (has_plot_log d e r); reflexivity. Qed.

Lemma store_engines_frame l d :
  recent_runs (fold_left store_recent_engine l d) = recent_runs d /\
  plot_logs (fold_left store_recent_engine l d) = plot_logs d.
Proof.
  apply (fold_left_inv (fun d' => recent_runs d' = recent_runs d /\ plot_logs d' = plot_logs d)).
  - intros d' x H. exact H.
  - split; reflexivity.
Qed.

Lemma get_set_recent l e v e' :
  get_recent (set_recent l e v) e' = if Nat.eqb e' e then Some v else get_recent l e'.
Proof.
  rewrite (Nat.eqb_sym e' e). induction l as [|[a w] l IH]; cbn; [reflexivity|].
  destruct (Nat.eqb a e) eqn:E; cbn.
  - apply Nat.eqb_eq in E. subst a. now destruct (Nat.eqb e e').
  - rewrite IH. destruct (Nat.eqb e e') eqn:E'; [|reflexivity]. apply Nat.eqb_eq in E'. subst e'. now rewrite E.
Qed.

Lemma create_plot_log_nodup d e r : NoDup (plot_logs d) -> NoDup (plot_logs (create_plot_log d e r)).
Proof.
  unfold create_plot_log. intros H. destruct (has_plot_log d e r) eqn:E; [exact H|]. cbn.
  apply NoDup_snoc; [exact H|]. now apply existsb_er_false.
Qed.

(* only create_plot_log adds a plot log *)
Lemma step_plot_logs_nodup interval entries s o :
  NoDup (plot_logs (data s)) -> NoDup (plot_logs (data (step interval entries s o))).
Proof.
  intros H. destruct o as [e|e|e r t|e r|e mr msg| |]; cbn [step].
  - destruct (find_engine s e); exact H.
  - destruct (find_engine s e); exact H.
  - destruct (find_engine s e) as [x|]; [|exact H]. destruct (e_run x) as [cur|]; cbn [data].
    + destruct (rd_id cur =? r); cbn [data]; apply create_plot_log_nodup; exact H.
    + apply create_plot_log_nodup, H.
  - destruct (find_engine s e) as [x|]; [|exact H]. destruct (e_run x); exact H.
  - destruct (find_engine s e) as [x|]; [|exact H].
    destruct (negb _); [exact H|]. destruct (e_run x) as [c|]; exact H.
  - cbn [data]. destruct (store_engines_frame (engines s) (data s)) as [_ ->]. exact H.
  - exact H.
Qed.

Lemma reachable_plot_logs_nodup interval entries os s :
  NoDup (plot_logs (data s)) -> NoDup (plot_logs (data (final interval entries s os))).
Proof. apply (fold_left_inv (fun s => NoDup (plot_logs (data s)))). intros s' o. apply step_plot_logs_nodup. Qed.

Definition ids (l : list edata) := map e_id l.

Lemma find_engine_some s e x : find_engine s e = Some x -> In x (engines s) /\ e_id x = e.
Proof.
  unfold find_engine. intros H. apply find_some in H as [H1 H2]. apply Nat.eqb_eq in H2. auto.
Qed.

Lemma find_engine_none s e : find_engine s e = None <-> ~ In e (ids (engines s)).
Proof.
  unfold ids. rewrite in_map_iff. split.
  - intros H [x [E Hx]]. pose proof (find_none _ _ H x Hx) as Hn. cbn in Hn. rewrite E, Nat.eqb_refl in Hn. discriminate.
  - intros H. destruct (find_engine s e) as [x|] eqn:E; [|reflexivity].
    apply find_engine_some in E as [Hx E]. elim H. now exists x.
Qed.

Lemma find_engine_snoc s x D :
  find_engine s (e_id x) = None -> find_engine {| engines := engines s ++ [x]; data := D |} (e_id x) = Some x.
Proof.
  unfold find_engine. cbn [engines]. induction (engines s) as [|y l IH]; cbn; [now rewrite Nat.eqb_refl|].
  destruct (Nat.eqb (e_id y) (e_id x)); [discriminate|exact IH].
Qed.

Lemma ids_set_engine l x d : In x l -> e_id d = e_id x -> ids (set_engine l d) = ids l.
Proof.
  intros Hx Ed. apply (in_map e_id) in Hx. rewrite <- Ed in Hx. clear x Ed.
  unfold ids. induction l as [|y l IH]; cbn in *; [tauto|]. destruct (Nat.eqb (e_id y) (e_id d)) eqn:E.
  - apply Nat.eqb_eq in E. cbn. now rewrite E.
  - destruct Hx as [H|H]; [apply Nat.eqb_neq in E; congruence|]. cbn. now rewrite IH.
Qed.

Lemma in_set_engine l d y :
  NoDup (ids l) -> In y (set_engine l d) -> y = d \/ (In y l /\ e_id y <> e_id d).
Proof.
  unfold ids. induction l as [|x l IH]; cbn; intros Hnd; [intuition|].
  inversion Hnd as [|a b Hnin Hnd']; subst. destruct (Nat.eqb (e_id x) (e_id d)) eqn:E; cbn.
  - apply Nat.eqb_eq in E. intros [<-|H]; [now left|]. right. split; [now right|].
    intros E'. apply Hnin. rewrite E, <- E'. now apply in_map.
  - apply Nat.eqb_neq in E. intros [<-|H]; [right; auto|]. destruct (IH Hnd' H) as [->|[H1 H2]]; auto.
Qed.

Lemma in_del_engine l e y : In y (del_engine l e) <-> In y l /\ e_id y <> e.
Proof. unfold del_engine. now rewrite filter_In, negb_true_iff, Nat.eqb_neq. Qed.

Lemma in_ids_del l e i : In i (ids (del_engine l e)) <-> In i (ids l) /\ i <> e.
Proof.
  unfold ids. rewrite !in_map_iff. split.
  - intros [x [<- Hx]]. apply in_del_engine in Hx as [Hx Hne]. split; [now exists x|exact Hne].
  - intros [[x [<- Hx]] Hne]. exists x. split; [reflexivity|]. now apply in_del_engine.
Qed.

Definition stored (s : st) (e : eid) (r : rid) : bool := existsb (er_eqb (e, r)) (recent_runs (data s)).

(* o installs no run id that is stored already; a run id is installed by a run-started notification or from
   the recent-engines row read at registration *)
Definition guard (s : st) (o : op) : bool :=
  match o with
  | RunStarted e r _ =>
      match find_engine s e with
      | Some x => match e_run x with
                  | Some cur => (rd_id cur =? r) || negb (stored s e r)
                  | None => negb (stored s e r) end
      | None => true end
  | Register e =>
      match find_engine s e with
      | Some _ => true
      | None => match get_recent (recent_engines (data s)) e with
                | Some (Some (r, _)) => negb (stored s e r)
                | _ => true end
      end
  | _ => true
  end.

Fixpoint guarded (interval : option Z) (entries : list tname) (s : st) (os : list op) : bool :=
  match os with
  | [] => true
  | o :: os' => guard s o && guarded interval entries (step interval entries s o) os'
  end.

Lemma not_stored s e r : negb (stored s e r) = true -> ~ In (e, r) (recent_runs (data s)).
Proof. intros H. apply existsb_er_false. now apply negb_true_iff. Qed.

(* a run is stored when it is closed, so the open ones must not be stored yet *)
Record stored_once (s : st) : Prop := {
  runs_nodup : NoDup (recent_runs (data s));
  ids_nodup : NoDup (ids (engines s));
  open_unstored : forall x c, In x (engines s) -> e_run x = Some c -> ~ In (e_id x, rd_id c) (recent_runs (data s))
}.

(* the recent runs gain at most rows of x, so the other engines' open runs stay unstored *)
Lemma stored_once_set s x d D :
  stored_once s -> In x (engines s) -> e_id d = e_id x -> NoDup (recent_runs D) ->
  (forall p, In p (recent_runs D) -> In p (recent_runs (data s)) \/ fst p = e_id x) ->
  (forall c, e_run d = Some c -> ~ In (e_id x, rd_id c) (recent_runs D)) ->
  stored_once {| engines := set_engine (engines s) d; data := D |}.
Proof.
  intros [Hnd Hids Hopen] Hx Ed HndD Hrows Hd. constructor; cbn [engines data].
  - exact HndD.
  - now rewrite (ids_set_engine _ x).
  - intros y c Hy Hr Hin. destruct (in_set_engine _ _ _ Hids Hy) as [->|[Hy' Hne]].
    + rewrite Ed in Hin. exact (Hd c Hr Hin).
    + destruct (Hrows _ Hin) as [Hin'|E]; [exact (Hopen y c Hy' Hr Hin')|]. cbn in E. congruence.
Qed.

Lemma stored_once_create l D e r :
  stored_once {| engines := l; data := D |} -> stored_once {| engines := l; data := create_plot_log D e r |}.
Proof. intros [Hnd Hids Hopen]. constructor; cbn [engines data] in *; rewrite ?recent_runs_create; assumption. Qed.

Lemma store_open_run s x cur :
  stored_once s -> In x (engines s) -> e_run x = Some cur ->
  NoDup (recent_runs (data s) ++ [(e_id x, rd_id cur)]) /\
  forall p, In p (recent_runs (data s) ++ [(e_id x, rd_id cur)]) -> In p (recent_runs (data s)) \/ fst p = e_id x.
Proof.
  intros H Hx Er. split.
  - apply NoDup_snoc; [apply H|now apply (open_unstored s H)].
  - intros p Hp. apply in_app_or in Hp as [Hp|[<-|[]]]; auto.
Qed.

Lemma step_stored_once interval entries s o :
  stored_once s -> guard s o = true -> stored_once (step interval entries s o).
Proof.
  intros H Hg. destruct o as [e|e|e r t|e r|e mr msg| |]; cbn [step guard] in *.
  - (* Register *)
    destruct (find_engine s e) eqn:Ef; [exact H|]. destruct H as [Hnd Hids Hopen].
    constructor; cbn [engines data].
    + exact Hnd.
    + unfold ids. rewrite map_app. apply NoDup_snoc; [exact Hids|now apply find_engine_none].
    + intros x c Hin Hr. apply in_app_or in Hin as [Hin|[<-|[]]]; [now apply Hopen|].
      cbn in Hr |- *. destruct (get_recent _ e) as [[[r t]|]|]; try discriminate.
      injection Hr as <-. now apply not_stored.
  - (* Disconnect *)
    destruct (find_engine s e) eqn:Ef; [|exact H]. destruct H as [Hnd Hids Hopen].
    constructor; cbn [engines data store_recent_engine recent_runs].
    + exact Hnd.
    + now apply NoDup_map_filter.
    + intros x c Hin Hr. apply in_del_engine in Hin as [Hin _]. now apply Hopen.
  - (* RunStarted *)
    destruct (find_engine s e) as [x|] eqn:Ef; [|exact H]. apply find_engine_some in Ef as [Hx <-].
    destruct (e_run x) as [cur|] eqn:Er; [destruct (rd_id cur =? r) eqn:Eid|]; apply stored_once_create.
    + now destruct s.
    + destruct (store_open_run s x cur H Hx Er) as [Hnd' Hrows].
      apply (stored_once_set s x _ _ H Hx); [reflexivity|exact Hnd'|exact Hrows|].
      intros c [= <-] Hin. apply in_app_or in Hin as [Hin|[[= E]|[]]].
      * now apply (not_stored s (e_id x) r).
      * apply Z.eqb_neq in Eid. congruence.
    + apply (stored_once_set s x _ _ H Hx); [reflexivity|apply H|auto|]. intros c [= <-]. now apply not_stored.
  - (* RunStopped *)
    destruct (find_engine s e) as [x|] eqn:Ef; [|exact H]. apply find_engine_some in Ef as [Hx <-].
    destruct (e_run x) as [cur|] eqn:Er; [|exact H].
    destruct (store_open_run s x cur H Hx Er) as [Hnd' Hrows].
    apply (stored_once_set s x _ _ H Hx); [reflexivity|exact Hnd'|exact Hrows|discriminate].
  - (* Tags *)
    destruct (find_engine s e) as [x|] eqn:Ef; [|exact H]. apply find_engine_some in Ef as [Hx <-].
    destruct (negb _); [exact H|].
    destruct (e_run x) as [c0|] eqn:Er; (apply (stored_once_set s x _ _ H Hx); [reflexivity|apply H|auto|]);
      [|discriminate].
    intros c [= <-]. exact (open_unstored s H x c0 Hx Er).
  - (* Restart *)
    constructor; cbn [engines data]; [|constructor|contradiction].
    destruct (store_engines_frame (engines s) (data s)) as [-> _]. apply H.
  - constructor; cbn [engines data]; [apply H|constructor|contradiction].
Qed.

Lemma reachable_stored_once interval entries os s :
  stored_once s -> guarded interval entries s os = true -> stored_once (final interval entries s os).
Proof.
  intros H Hg.
  refine (proj1 (fold_left_inv_rest (fun s l => stored_once s /\ guarded interval entries s l = true) _ _ os s
                   (conj H Hg))).
  intros s' o l [H' Hg']. cbn [guarded] in Hg'. apply andb_true_iff in Hg' as [H1 H2].
  split; [now apply step_stored_once|exact H2].
Qed.

Lemma init_stored_once : stored_once init.
Proof. constructor; cbn; [constructor|constructor|contradiction]. Qed.

Definition run_of (s : st) (e : eid) : option (option (rid * Z)) :=
  match find_engine s e with
  | Some x => Some (match e_run x with Some c => Some (rd_id c, rd_started c) | None => None end)
  | None => None end.

Definition touches (e : eid) (o : op) : bool :=
  match o with
  | Register e' | Disconnect e' | RunStarted e' _ _ | RunStopped e' _ | Tags e' _ _ => Nat.eqb e e'
  | Restart | Crash => false
  end.

Definition parked (s : st) (e : eid) (v : option (rid * Z)) : Prop :=
  find_engine s e = None /\ get_recent (recent_engines (data s)) e = Some v.

Lemma recent_fold_other l d e :
  ~ In e (ids l) -> get_recent (recent_engines (fold_left store_recent_engine l d)) e = get_recent (recent_engines d) e.
Proof.
  intros Hnin.
  apply (fold_left_inv_in (fun d' => get_recent (recent_engines d') e = get_recent (recent_engines d) e));
    [|reflexivity].
  intros d' x Hx H. cbn. rewrite get_set_recent. destruct (Nat.eqb_spec e (e_id x)) as [->|]; [|exact H].
  elim Hnin. now apply in_map.
Qed.

Lemma recent_fold_member l : forall d x,
  NoDup (ids l) -> In x l ->
  get_recent (recent_engines (fold_left store_recent_engine l d)) (e_id x)
  = Some (match e_run x with Some r => Some (rd_id r, rd_started r) | None => None end).
Proof.
  induction l as [|y l IH]; intros d x Hnd Hin; [contradiction|]. cbn in Hnd. inversion Hnd; subst. cbn.
  destruct Hin as [->|Hin]; [|now apply IH].
  rewrite recent_fold_other by assumption. cbn. now rewrite get_set_recent, Nat.eqb_refl.
Qed.

Lemma disconnect_parks interval entries s e v :
  run_of s e = Some v -> parked (step interval entries s (Disconnect e)) e v.
Proof.
  unfold run_of. cbn [step]. destruct (find_engine s e) as [x|] eqn:Ef; [|discriminate]. intros [= <-].
  apply find_engine_some in Ef as [_ <-]. split.
  - apply find_engine_none. cbn [engines]. rewrite in_ids_del. tauto.
  - cbn. now rewrite get_set_recent, Nat.eqb_refl.
Qed.

Lemma restart_parks interval entries s e v :
  NoDup (ids (engines s)) -> run_of s e = Some v -> parked (step interval entries s Restart) e v.
Proof.
  unfold run_of. intros Hnd. destruct (find_engine s e) as [x|] eqn:Ef; [|discriminate]. intros [= <-].
  apply find_engine_some in Ef as [Hx <-]. split; [reflexivity|]. cbn [step data]. now apply recent_fold_member.
Qed.

Lemma parked_step interval entries s e o v :
  touches e o = false -> parked s e v -> parked (step interval entries s o) e v.
Proof.
  unfold parked. rewrite !find_engine_none. intros Ht [Hf Hg].
  destruct o as [e'|e'|e' r t|e' r|e' mr msg| |]; cbn [touches] in Ht; cbn [step].
  - destruct (find_engine s e'); [auto|]. split; [|exact Hg].
    cbn [engines]. unfold ids. rewrite map_app, in_app_iff. apply Nat.eqb_neq in Ht. intros [Hin|[E|[]]]; auto.
  - destruct (find_engine s e') as [x|] eqn:Ef; [|auto]. apply find_engine_some in Ef as [_ <-].
    cbn [engines data store_recent_engine recent_engines]. rewrite in_ids_del, get_set_recent, Ht. tauto.
  - destruct (find_engine s e') as [x|] eqn:Ef; [|auto]. apply find_engine_some in Ef as [Hx <-].
    destruct (e_run x) as [cur|]; [destruct (rd_id cur =? r)|]; cbn [engines data];
      rewrite ?(ids_set_engine _ x), recent_engines_create; auto.
  - destruct (find_engine s e') as [x|] eqn:Ef; [|auto]. apply find_engine_some in Ef as [Hx <-].
    destruct (e_run x); [|auto]. cbn [engines data]. rewrite (ids_set_engine _ x); auto.
  - destruct (find_engine s e') as [x|] eqn:Ef; [|auto]. apply find_engine_some in Ef as [Hx <-].
    destruct (negb _); [auto|]. destruct (e_run x); cbn [engines data]; rewrite (ids_set_engine _ x); auto.
  - cbn [engines data]. rewrite recent_fold_other by exact Hf. auto.
  - auto.
Qed.

Lemma parked_final interval entries os s e v :
  forallb (fun o => negb (touches e o)) os = true -> parked s e v -> parked (final interval entries s os) e v.
Proof.
  intros Hall. apply (fold_left_inv_in (fun s => parked s e v)). intros s' o Ho. apply parked_step.
  rewrite forallb_forall in Hall. now apply negb_true_iff, Hall.
Qed.

Lemma register_restores interval entries s e v :
  parked s e v -> run_of (step interval entries s (Register e)) e = Some v.
Proof.
  intros [Hf Hg]. unfold run_of. cbn [step]. rewrite Hf, Hg.
  rewrite (find_engine_snoc s {| e_id := e |}) by exact Hf. cbn. now destruct v as [[r t]|].
Qed.

Lemma same_run_after_reconnect interval entries s e v os :
  run_of s e = Some v ->
  forallb (fun o => negb (touches e o)) os = true ->
  run_of (step interval entries (final interval entries (step interval entries s (Disconnect e)) os) (Register e)) e
  = Some v.
Proof. intros Hrun Hall. now apply register_restores, parked_final, disconnect_parks. Qed.

Lemma same_run_after_restart interval entries s e v os :
  NoDup (ids (engines s)) -> run_of s e = Some v ->
  forallb (fun o => negb (touches e o)) os = true ->
  run_of (step interval entries (final interval entries (step interval entries s Restart) os) (Register e)) e
  = Some v.
Proof. intros Hnd Hrun Hall. now apply register_restores, parked_final, restart_parks. Qed.

Lemma tags_in_run interval entries s e x c mr msg :
  find_engine s e = Some x -> e_run x = Some c ->
  exists new, plot_rows (data (step interval entries s (Tags e mr msg))) = plot_rows (data s) ++ new
              /\ Forall (fun w => fst w = (e, rd_id c)) new.
Proof.
  intros Hf Hr. cbn [step]. rewrite Hf, Hr. destruct (negb _); [exists []; split; [now rewrite app_nil_r|constructor]|].
  cbn [data add_rows plot_rows]. eexists. split; [reflexivity|]. destruct (has_plot_log _ _ _); [|constructor].
  rewrite Forall_forall. intros w Hw. apply in_map_iff in Hw as [y [<- _]]. reflexivity.
Qed.
