(* Proofs about the model of ErrorRecoveryDecorator (model/Recovery.v): the write-buffer invariant of C24
   and the protocol facts of C23. Every helper of the model gets one equation saying what it changes;
   do_read and do_write are split into their outcomes once (do_read_cases, do_write_cases) and every
   fact about a step is read off those. *)
From Coq Require Import ZArith List Bool Arith.
From OP Require Import lib.Obs lib.ListFacts gen.RecoveryConst model.Recovery.
Import ListNotations.
Open Scope Z_scope.

Definition wf (m : amap) : Prop := NoDup (map fst m).

Lemma aget_cases m r : match aget m r with Some v => In (r, v) m | None => ~ In r (map fst m) end.
Proof.
  induction m as [|[r0 v0] m IH]; cbn; [tauto|].
  destruct (Nat.eqb_spec r0 r) as [->|Hne]; [now left|]. destruct (aget m r); tauto.
Qed.

Lemma aget_in m r v : aget m r = Some v -> In (r, v) m.
Proof. intros H. generalize (aget_cases m r). now rewrite H. Qed.

Lemma aget_none_notin m r : aget m r = None -> ~ In r (map fst m).
Proof. intros H. generalize (aget_cases m r). now rewrite H. Qed.

Lemma notin_aget_none m r : ~ In r (map fst m) -> aget m r = None.
Proof.
  intros H. generalize (aget_cases m r). destruct (aget m r) as [v|]; [|reflexivity].
  intros Hin. destruct H. apply (in_map fst _ _ Hin).
Qed.

Lemma in_aget m r v : wf m -> In (r, v) m -> aget m r = Some v.
Proof.
  unfold wf. induction m as [|[r0 v0] m IH]; cbn; intros Hnd Hin; [contradiction|].
  inversion Hnd as [|x l Hnin Hnd']; subst. destruct Hin as [[= -> ->]|Hin]; [now rewrite Nat.eqb_refl|].
  destruct (Nat.eqb_spec r0 r) as [->|]; [|auto]. destruct Hnin. apply (in_map fst _ _ Hin).
Qed.

Lemma aget_aset m r v r' : aget (aset m r v) r' = if Nat.eqb r r' then Some v else aget m r'.
Proof.
  induction m as [|[r0 v0] m IH]; cbn; [reflexivity|].
  destruct (Nat.eqb_spec r0 r) as [->|Hne]; cbn; [now destruct (Nat.eqb r r')|].
  rewrite IH. destruct (Nat.eqb_spec r0 r') as [<-|]; [|reflexivity].
  now destruct (Nat.eqb_spec r r0) as [->|].
Qed.

Lemma aget_filter_key (f : reg -> bool) m r :
  aget (filter (fun e => f (fst e)) m) r = if f r then aget m r else None.
Proof.
  induction m as [|[r0 v0] m IH]; cbn; [now destruct (f r)|].
  destruct (Nat.eqb_spec r0 r) as [->|Hne].
  - destruct (f r); cbn; [now rewrite Nat.eqb_refl|exact IH].
  - destruct (f r0); cbn; [|exact IH]. now destruct (Nat.eqb_spec r0 r).
Qed.

Lemma aget_adel m r r' : aget (adel m r) r' = if Nat.eqb r r' then None else aget m r'.
Proof.
  unfold adel. rewrite (aget_filter_key (fun k => negb (Nat.eqb k r))), Nat.eqb_sym.
  now destruct (Nat.eqb r r').
Qed.

Lemma aget_drop_keys m E r :
  aget (drop_keys m E) r = if existsb (Nat.eqb r) E then None else aget m r.
Proof.
  unfold drop_keys. rewrite (aget_filter_key (fun k => negb (existsb (Nat.eqb k) E))).
  now destruct (existsb _ _).
Qed.

Lemma keys_aset m r v :
  map fst (aset m r v) = if existsb (Nat.eqb r) (map fst m) then map fst m else map fst m ++ [r].
Proof.
  induction m as [|[r0 v0] m IH]; cbn; [reflexivity|]. rewrite (Nat.eqb_sym r r0).
  destruct (Nat.eqb_spec r0 r) as [->|]; cbn; [reflexivity|]. rewrite IH. now destruct (existsb _ _).
Qed.

Lemma wf_aset m r v : wf m -> wf (aset m r v).
Proof.
  unfold wf. rewrite keys_aset. destruct (existsb _ _) eqn:E; [auto|]. intros H.
  apply NoDup_snoc; [exact H|]. rewrite <- existsb_eqb_In. now rewrite E.
Qed.

Lemma wf_filter f m : wf m -> wf (filter f m).
Proof. apply NoDup_map_filter. Qed.

Lemma wf_set_all m ps : wf m -> wf (set_all m ps).
Proof. apply (fold_left_inv wf). intros m' p. apply wf_aset. Qed.

(* last value given for r in a list of (value, register) pairs *)
Fixpoint plast (ps : list (Z * reg)) (r : reg) : option Z :=
  match ps with
  | [] => None
  | p :: ps' => match plast ps' r with
                | Some v => Some v
                | None => if Nat.eqb (snd p) r then Some (fst p) else None
                end
  end.

Lemma aget_set_all ps : forall m r,
  aget (set_all m ps) r = match plast ps r with Some v => Some v | None => aget m r end.
Proof.
  unfold set_all. induction ps as [|p ps IH]; intros m r; cbn; [reflexivity|].
  rewrite IH, aget_aset. destruct (plast ps r); [reflexivity|].
  destruct (Nat.eqb (snd p) r); reflexivity.
Qed.

Lemma plast_cases ps r : match plast ps r with Some v => In (v, r) ps | None => ~ In r (map snd ps) end.
Proof.
  induction ps as [|[v0 r0] ps IH]; cbn; [tauto|]. destruct (plast ps r); [now right|].
  destruct (Nat.eqb_spec r0 r) as [->|]; [now left|tauto].
Qed.

Lemma plast_in ps r v : plast ps r = Some v -> In (v, r) ps.
Proof. intros H. generalize (plast_cases ps r). now rewrite H. Qed.

Lemma plast_none ps r : plast ps r = None -> ~ In r (map snd ps).
Proof. intros H. generalize (plast_cases ps r). now rewrite H. Qed.

Lemma in_plast ps r v : NoDup (map snd ps) -> In (v, r) ps -> plast ps r = Some v.
Proof.
  induction ps as [|[v0 r0] ps IH]; cbn; intros Hnd Hin; [contradiction|].
  inversion Hnd as [|x l Hnin Hnd']; subst. destruct Hin as [[= -> ->]|Hin]; [|now rewrite IH].
  rewrite Nat.eqb_refl. generalize (plast_cases ps r). destruct (plast ps r); [|reflexivity].
  intros Hin. destruct Hnin. apply (in_map snd _ _ Hin).
Qed.

Lemma aget_drop_batch m ps r :
  aget (drop_keys m (map snd ps)) r = match plast ps r with Some _ => None | None => aget m r end.
Proof.
  rewrite aget_drop_keys. generalize (plast_cases ps r). destruct (plast ps r) as [v|]; intros H.
  - apply (in_map snd), (existsb_eqb_In r) in H. now rewrite H.
  - destruct (existsb _ _) eqn:E; [|reflexivity]. now apply existsb_eqb_In in E.
Qed.

Definition ok_next (x : rstate) : rstate := match x with SIssue => SOK | x => x end.

Definition err_next (x : rstate) (tls trc now : Z) : rstate :=
  match x with
  | SOK => SIssue
  | SIssue => if tls + reconnect_timeout_seconds <? now then SReconnect else SIssue
  | SReconnect => if trc + error_timeout_seconds <? now then SError else SReconnect
  | x => x
  end.

Lemma success_common_eq s : success_common s =
  {| state := ok_next (state s); lkg := lkg s; pending := pending s; last_ok := last_ok s;
     t_last_success := now s; t_reconnect := t_reconnect s; rtick := rtick s;
     tag_connected := match state s with SIssue => true | _ => tag_connected s end;
     now := now s; mem := mem s; hwlog := hwlog s; commanded := commanded s |}.
Proof. unfold success_common, set_last_success. cbn [state]. destruct (state s); reflexivity. Qed.

Lemma error_eq s : error_read_write s =
  let x := err_next (state s) (t_last_success s) (t_reconnect s) (now s) in
  {| state := x; lkg := lkg s; pending := pending s; last_ok := [];
     t_last_success := t_last_success s;
     t_reconnect := match state s, x with SIssue, SReconnect => now s | _, _ => t_reconnect s end;
     rtick := rtick s;
     tag_connected := if state_eqb x (state s) then tag_connected s
                      else negb (in_states x status_disconnected_states);
     now := now s; mem := mem s; hwlog := hwlog s; commanded := commanded s |}.
Proof.
  unfold error_read_write, with_last_ok. cbn [state t_last_success t_reconnect now].
  destruct (state s); try reflexivity; cbn [err_next]; destruct (_ <? _); reflexivity.
Qed.

Lemma fold_hw_eq ps : forall s, fold_left (fun s p => hw_write s (snd p) (fst p)) ps s =
  {| state := state s; lkg := lkg s; pending := pending s; last_ok := last_ok s;
     t_last_success := t_last_success s; t_reconnect := t_reconnect s; rtick := rtick s;
     tag_connected := tag_connected s; now := now s; mem := set_all (mem s) ps;
     hwlog := hwlog s ++ map (fun p => (snd p, fst p)) ps; commanded := commanded s |}.
Proof.
  induction ps as [|p ps IH]; intros s; cbn [fold_left map].
  - rewrite app_nil_r. now destruct s.
  - rewrite IH. cbn. now rewrite <- app_assoc.
Qed.

(* x = hw_side s x says that x differs from s at most in pending, mem and hwlog *)
Definition hw_side (s h : st) : st :=
  {| state := state s; lkg := lkg s; pending := pending h; last_ok := last_ok s;
     t_last_success := t_last_success s; t_reconnect := t_reconnect s; rtick := rtick s;
     tag_connected := tag_connected s; now := now s; mem := mem h; hwlog := hwlog h;
     commanded := commanded s |}.

Lemma hw_side_trans x y z : y = hw_side x y -> z = hw_side y z -> z = hw_side x z.
Proof. intros Hy Hz. rewrite Hz, Hy. reflexivity. Qed.

Lemma flush_items_frame items : forall s oks, flush_items s items oks = hw_side s (flush_items s items oks).
Proof.
  induction items as [|[r v] items IH]; intros s oks; cbn [flush_items]; [now destruct s|].
  destruct oks as [|[|] oks]; try apply IH.
  apply (hw_side_trans s (with_pending (hw_write s r v) (adel (pending s) r))); [reflexivity|apply IH].
Qed.

Lemma flush_frame s E oks : flush s E oks = hw_side s (flush s E oks).
Proof.
  unfold flush. destruct (state s); try (now destruct s).
  apply (hw_side_trans s (with_pending s (drop_keys (pending s) E))); [reflexivity|apply flush_items_frame].
Qed.

(* the hw_ok branch of write_through *)
Definition write_accepted (s : st) (ps : list (Z * reg)) (oks : list bool) : st :=
  let s2 := fold_left (fun s p => hw_write s (snd p) (fst p)) ps s in
  flush (success_common (with_last_ok s2 (set_all (last_ok s2) ps))) (map snd ps) oks.

Lemma write_accepted_frame s ps oks :
  write_accepted s ps oks
  = hw_side (success_common (with_last_ok s (set_all (last_ok s) ps))) (write_accepted s ps oks).
Proof.
  unfold write_accepted. refine (hw_side_trans _ _ _ _ (flush_frame _ _ _)).
  rewrite !success_common_eq, fold_hw_eq. reflexivity.
Qed.

(* makes the SError branch of write_through dead *)
Lemma error_not_fatal s : state s = SOK \/ state s = SIssue -> state (error_read_write s) <> SError.
Proof. rewrite error_eq. cbn [state]. intros [-> | ->]; cbn; [|destruct (_ <? _)]; discriminate. Qed.

Lemma write_through_cases (P : st -> Prop) s orig hw_ok oks single :
  let ps := filter_writes s orig in
  state s = SOK \/ state s = SIssue ->
  (ps = [] -> P s) -> (hw_ok = true -> P (write_accepted s ps oks)) -> (hw_ok = false -> P (write_buffer s ps)) ->
  P (write_through s orig hw_ok oks single).
Proof.
  (* the three outcomes are made syntactically equal to the branches of write_through before they are used: left to
     conversion, the kernel unfolds flush on both sides *)
  unfold write_through, write_accepted, write_buffer. cbv zeta. generalize (filter_writes s orig). intros ps Hst Hsame Hok Hfail.
  destruct (single && _) eqn:En.
  - apply Hsame. destruct ps; [reflexivity|]. now rewrite andb_false_r in En.
  - destruct hw_ok; [exact (Hok eq_refl)|]. specialize (Hfail eq_refl).
    destruct (state (error_read_write s)) eqn:Ee; try exact Hfail. now apply error_not_fatal in Ee.
Qed.

Definition cmd_upd (s : st) (orig : list (Z * reg)) : st := with_commanded s (set_all (commanded s) orig).

Ltac proj := cbn [state lkg pending last_ok t_last_success t_reconnect rtick tag_connected now mem hwlog commanded
                  upd_state with_last_ok with_pending with_lkg with_commanded hw_write hw_side cmd_upd].

Lemma unusable_false_states s :
  unusable s = false -> (state s = SOK \/ state s = SIssue) \/ state s = SReconnect.
Proof. unfold unusable, in_states. destruct (state s); cbn; intros H; try discriminate; auto. Qed.

Lemma do_write_through s orig hw_ok oks single :
  state s = SOK \/ state s = SIssue ->
  do_write s orig hw_ok oks single = (write_through (cmd_upd s orig) orig hw_ok oks single, RDone).
Proof. intros Hst. unfold do_write, unusable, cmd_upd. proj. now destruct Hst as [-> | ->]. Qed.

Lemma do_read_cases (P : st * result -> Prop) s rs hw :
  (unusable s = true -> P (s, RRaise)) ->
  (unusable s = false -> state s = SReconnect \/ hw = None ->
     P (error_read_write s, RVals (lkg_values (error_read_write s) rs))) ->
  (forall vs, unusable s = false -> state s <> SReconnect -> hw = Some vs ->
     P (success_common (with_lkg s (set_all (lkg s) (combine vs rs))), RVals (map Some vs))) ->
  P (do_read s rs hw).
Proof.
  intros Hraise Hmask Hgood. unfold do_read. destruct (unusable s); [auto|].
  destruct (state s) eqn:E; try (apply Hmask; auto);
    (destruct hw as [vs|]; [apply Hgood; congruence|apply Hmask; auto]).
Qed.

(* the outcomes of a write: it raises; the single write is filtered out; the hardware accepts the filtered
   batch; the hardware raises and the filtered batch is buffered; in Reconnect the whole batch is buffered *)
Lemma do_write_cases (P : st * result -> Prop) s orig hw_ok oks single :
  let s1 := cmd_upd s orig in let ps := filter_writes s orig in
  (unusable s = true -> P (s, RRaise)) ->
  (unusable s = false -> ps = [] -> P (s1, RDone)) ->
  (unusable s = false -> state s = SOK \/ state s = SIssue -> P (write_accepted s1 ps oks, RDone)) ->
  (unusable s = false -> P (write_buffer s1 ps, RDone)) ->
  (unusable s = false -> P (write_buffer s1 orig, RDone)) ->
  P (do_write s orig hw_ok oks single).
Proof.
  intros s1 ps Hraise Hsame Hok Hfail Hrec.
  destruct (unusable s) eqn:Hu; [unfold do_write; rewrite Hu; auto|].
  destruct (unusable_false_states s Hu) as [Hst|E].
  - rewrite (do_write_through s orig hw_ok oks single Hst). fold s1.
    apply (write_through_cases (fun x => P (x, RDone)) s1 orig hw_ok oks single Hst); auto.
  - unfold do_write. rewrite Hu. proj. rewrite E. auto.
Qed.

(* c commanded, p buffered, m held by the hardware, l recorded in last_ok *)
Definition RegOK (c p m l : option Z) : Prop :=
  (forall v, c = Some v -> p = Some v \/ (p = None /\ m = Some v)) /\
  (forall v, l = Some v -> c = Some v /\ p = None).

Record Inv (s : st) : Prop := {
  invJ : forall r v, aget (commanded s) r = Some v ->
           aget (pending s) r = Some v \/ (aget (pending s) r = None /\ aget (mem s) r = Some v);
  invK : forall r v, aget (last_ok s) r = Some v ->
           aget (commanded s) r = Some v /\ aget (pending s) r = None;
  invW : wf (pending s)
}.

Definition reg_inv (s : st) (r : reg) : Prop :=
  RegOK (aget (commanded s) r) (aget (pending s) r) (aget (mem s) r) (aget (last_ok s) r).

Lemma Inv_pointwise s : Inv s <-> wf (pending s) /\ forall r, reg_inv s r.
Proof.
  split.
  - intros [J K W]. split; [exact W|]. intros r. split; [apply J|apply K].
  - intros [W H]. constructor; [intros r; apply (H r)|intros r; apply (H r)|exact W].
Qed.

Lemma RegOK_written v : RegOK (Some v) None (Some v) (Some v).
Proof. split; auto. Qed.
Lemma RegOK_buffered v m : RegOK (Some v) (Some v) m None.
Proof. split; [auto|discriminate]. Qed.
Lemma RegOK_forget c p m l : RegOK c p m l -> RegOK c p m None.
Proof. intros [J _]. split; [exact J|discriminate]. Qed.
Lemma RegOK_flushed c p m l v : p = Some v -> RegOK c p m l -> RegOK c None (Some v) l.
Proof.
  intros -> [J K]. split.
  - intros w Hc. destruct (J w Hc) as [H|[H _]]; [right; auto|discriminate].
  - intros w Hl. now destruct (K w Hl).
Qed.

Lemma Inv_quiet s s' :
  commanded s' = commanded s -> pending s' = pending s -> mem s' = mem s ->
  last_ok s' = last_ok s \/ last_ok s' = [] -> Inv s -> Inv s'.
Proof.
  intros Hc Hp Hm Hl [J K W]. constructor; rewrite ?Hc, Hp, ?Hm; [exact J| |exact W].
  destruct Hl as [-> | ->]; [exact K|discriminate].
Qed.

Lemma do_read_inv s rs hw : Inv s -> Inv (fst (do_read s rs hw)).
Proof.
  intros HI. apply do_read_cases; intros; cbn [fst];
    [exact HI|rewrite error_eq|rewrite success_common_eq]; apply (Inv_quiet s); auto.
Qed.

Lemma flush_items_inv items : forall s oks,
  Inv s -> (forall r v, In (r, v) items -> aget (pending s) r = Some v) -> NoDup (map fst items) ->
  Inv (flush_items s items oks).
Proof.
  induction items as [|[r v] items IH]; intros s oks HI Hitems Hnd; cbn [flush_items]; [exact HI|].
  inversion Hnd as [|x l Hnin Hnd']; subst.
  assert (Hrest : forall r0 v0, In (r0, v0) items -> aget (pending s) r0 = Some v0)
    by (intros; apply Hitems; now right).
  destruct oks as [|[|] oks]; [apply IH; auto| |apply IH; auto].
  apply IH; [| |exact Hnd'].
  - apply Inv_pointwise in HI as [W H]. apply Inv_pointwise. proj. split; [apply wf_filter, W|].
    intros r0. unfold reg_inv. proj. rewrite aget_adel, aget_aset.
    destruct (Nat.eqb_spec r r0) as [<-|]; [|apply H].
    exact (RegOK_flushed _ _ _ _ _ (Hitems r v (or_introl eq_refl)) (H r)).
  - intros r0 v0 Hin. proj. rewrite aget_adel. destruct (Nat.eqb_spec r r0) as [<-|]; [|now apply Hrest].
    destruct Hnin. apply (in_map fst _ _ Hin).
Qed.

(* Inv need not hold before the superseded entries are dropped, only after *)
Lemma flush_inv s E oks :
  state s = SOK -> Inv (with_pending s (drop_keys (pending s) E)) -> Inv (flush s E oks).
Proof.
  intros Hs HI. unfold flush. rewrite Hs. apply flush_items_inv; [exact HI| |exact (invW _ HI)].
  intros r v. exact (in_aget _ r v (invW _ HI)).
Qed.

Definition op_wf (o : op) : Prop :=
  match o with WriteBatch ps _ _ => NoDup (map snd ps) | _ => True end.

Lemma filter_writes_sub s orig p : In p (filter_writes s orig) -> In p orig.
Proof. unfold filter_writes. destruct only_write_modified_values; [|auto]. intros H. now apply filter_In in H. Qed.

Lemma filter_writes_nodup s orig : NoDup (map snd orig) -> NoDup (map snd (filter_writes s orig)).
Proof. unfold filter_writes. destruct only_write_modified_values; [apply NoDup_map_filter|auto]. Qed.

Lemma filtered_out s orig v r :
  In (v, r) orig -> ~ In r (map snd (filter_writes s orig)) -> aget (last_ok s) r = Some v.
Proof.
  intros Hin Hnot. assert (H : ~ In (v, r) (filter_writes s orig)) by (intros H; apply Hnot, (in_map snd _ _ H)).
  unfold filter_writes in H. destruct only_write_modified_values; [|contradiction].
  rewrite filter_In in H. cbn in H. destruct (aget (last_ok s) r) as [old|]; [|tauto].
  destruct (Z.eqb_spec v old); [congruence|tauto].
Qed.

Lemma plast_filtered s orig r v :
  NoDup (map snd orig) -> plast (filter_writes s orig) r = Some v -> plast orig r = Some v.
Proof. intros Hnd H. apply in_plast; [exact Hnd|]. apply (filter_writes_sub s), plast_in, H. Qed.

Lemma filtered_keeps_commanded s orig r :
  Inv s -> plast (filter_writes s orig) r = None ->
  aget (set_all (commanded s) orig) r = aget (commanded s) r.
Proof.
  intros HI E. rewrite aget_set_all. destruct (plast orig r) as [v|] eqn:Eo; [|reflexivity].
  symmetry. apply (invK s HI), (filtered_out s orig); [apply plast_in, Eo|apply plast_none, E].
Qed.

(* the state between cmd_upd and writing or buffering ps: Inv is suspended at the registers of ps *)
Definition ready (s : st) (ps : list (Z * reg)) : Prop :=
  wf (pending s) /\
  forall r, match plast ps r with Some v => aget (commanded s) r = Some v | None => reg_inv s r end.

Lemma ready_filtered s orig :
  NoDup (map snd orig) -> Inv s -> ready (cmd_upd s orig) (filter_writes s orig).
Proof.
  intros Hnd HI. pose proof HI as [W H]%Inv_pointwise. split; [exact W|]. intros r.
  unfold reg_inv. proj. destruct (plast (filter_writes s orig) r) as [v|] eqn:E.
  - rewrite aget_set_all. now rewrite (plast_filtered s orig r v Hnd E).
  - rewrite (filtered_keeps_commanded s orig r HI E). apply H.
Qed.

Lemma ready_all s orig : Inv s -> ready (cmd_upd s orig) orig.
Proof.
  intros [W H]%Inv_pointwise. split; [exact W|]. intros r. unfold reg_inv. proj. rewrite aget_set_all.
  destruct (plast orig r); [reflexivity|apply H].
Qed.

Lemma write_accepted_inv s ps oks : state s = SOK \/ state s = SIssue -> ready s ps -> Inv (write_accepted s ps oks).
Proof.
  intros Hst [W H]. unfold write_accepted. rewrite success_common_eq, fold_hw_eq. apply flush_inv.
  - proj. now destruct Hst as [-> | ->].
  - apply Inv_pointwise. proj. split; [apply wf_filter, W|]. intros r. unfold reg_inv. proj.
    rewrite aget_drop_batch, !aget_set_all. specialize (H r).
    destruct (plast ps r) as [v|]; [rewrite H; apply RegOK_written|exact H].
Qed.

Lemma write_buffer_inv s ps : ready s ps -> Inv (write_buffer s ps).
Proof.
  intros [W H]. apply Inv_pointwise. unfold write_buffer. rewrite error_eq. proj.
  split; [apply wf_set_all, W|]. intros r. unfold reg_inv. proj. rewrite aget_set_all. specialize (H r).
  destruct (plast ps r) as [v|]; [rewrite H; apply RegOK_buffered|exact (RegOK_forget _ _ _ _ H)].
Qed.

Lemma do_write_inv s orig hw_ok oks single :
  NoDup (map snd orig) -> Inv s -> Inv (fst (do_write s orig hw_ok oks single)).
Proof.
  intros Hnd HI. pose proof (ready_filtered s orig Hnd HI) as Hr.
  apply do_write_cases; cbn [fst]; intros Hu.
  - exact HI.
  - intros Hnil. apply Inv_pointwise. rewrite Hnil in Hr. exact Hr.
  - intros Hst. now apply write_accepted_inv.
  - now apply write_buffer_inv.
  - now apply write_buffer_inv, ready_all.
Qed.

Lemma step_inv s o : op_wf o -> Inv s -> Inv (fst (step s o)).
Proof.
  intros Hwf HI. destruct o as [r hw|rs hw|v r ok oks|ps ok oks|ok|ok|dt]; cbn [step].
  1,2: now apply do_read_inv.
  - apply do_write_inv; [|exact HI]. cbn. constructor; [tauto|constructor].
  - now apply do_write_inv.
  - destruct (in_states (state s) reconnecting_states), (is_backoff_tick (rtick s + 1)), ok;
      apply (Inv_quiet s); auto.
  - destruct ok, (state s); apply (Inv_quiet s); auto.
  - apply (Inv_quiet s); auto.
Qed.

Lemma init_inv c : Inv (init c).
Proof. constructor; cbn; try discriminate. constructor. Qed.

Lemma reachable_inv os : forall s, Forall op_wf os -> Inv s -> Inv (final s os).
Proof.
  intros s Hwf HI.
  refine (proj2 (fold_left_inv_rest (fun s l => Forall op_wf l /\ Inv s) _ _ os s (conj Hwf HI))).
  intros s0 o l [Hw H0]. inversion Hw; subst. split; [assumption|now apply step_inv].
Qed.

Lemma batch_recorded s ps v r :
  NoDup (map snd ps) -> In (v, r) ps -> aget (set_all (last_ok s) (filter_writes s ps)) r = Some v.
Proof.
  intros Hnd Hin. rewrite aget_set_all. destruct (plast (filter_writes s ps) r) as [w|] eqn:E.
  - apply (plast_filtered s ps r w Hnd) in E. rewrite (in_plast ps r v Hnd Hin) in E. now symmetry.
  - apply (filtered_out s ps v r Hin), plast_none, E.
Qed.

Lemma last_ok_written s orig oks single :
  state s = SOK \/ state s = SIssue ->
  last_ok (fst (do_write s orig true oks single)) = set_all (last_ok s) (filter_writes s orig).
Proof.
  intros Hst. rewrite (do_write_through s orig true oks single Hst). cbn [fst].
  change (filter_writes s orig) with (filter_writes (cmd_upd s orig) orig).
  apply write_through_cases; [exact Hst| | |discriminate].
  - intros ->. reflexivity.
  - intros _. now rewrite write_accepted_frame, success_common_eq.
Qed.

Lemma write_converges s orig oks single :
  NoDup (map snd orig) -> Inv s -> (state s = SOK \/ state s = SIssue) ->
  let s' := fst (do_write s orig true oks single) in
  forall v r, In (v, r) orig -> aget (mem s') r = Some v /\ aget (pending s') r = None.
Proof.
  intros Hnd HI Hst s' v r Hin.
  assert (HI' : Inv s') by (now apply do_write_inv).
  assert (Hl : aget (last_ok s') r = Some v).
  { unfold s'. rewrite (last_ok_written s orig oks single Hst). now apply batch_recorded. }
  destruct (invK s' HI' r v Hl) as [Hc Hp]. split; [|exact Hp].
  destruct (invJ s' HI' r v Hc) as [H|[_ H]]; [congruence|exact H].
Qed.

Lemma cycle_converges s ps oks :
  NoDup (map snd ps) -> Inv s -> (state s = SOK \/ state s = SIssue) ->
  let s' := fst (step s (WriteBatch ps true oks)) in
  forall v r, In (v, r) ps -> aget (mem s') r = Some v /\ aget (pending s') r = None.
Proof. exact (write_converges s ps oks false). Qed.

Definition tag_ok (s : st) : Prop :=
  tag_connected s = negb (in_states (state s) status_disconnected_states).

Lemma tag_success_common s : tag_ok s -> tag_ok (success_common s).
Proof. unfold tag_ok. rewrite success_common_eq. proj. now destruct (state s). Qed.

Lemma state_eqb_eq a b : state_eqb a b = true -> a = b.
Proof. destruct a, b; cbn; congruence. Qed.

Lemma tag_error s : tag_ok s -> tag_ok (error_read_write s).
Proof.
  unfold tag_ok. rewrite error_eq. proj. intros H.
  destruct (state_eqb _ _) eqn:E; [|reflexivity]. apply state_eqb_eq in E. now rewrite E.
Qed.

Lemma do_read_tag s rs hw : tag_ok s -> tag_ok (fst (do_read s rs hw)).
Proof.
  intros H. apply do_read_cases; intros; cbn [fst];
    [exact H|now apply tag_error|now apply tag_success_common].
Qed.

Lemma do_write_tag s orig hw_ok oks single : tag_ok s -> tag_ok (fst (do_write s orig hw_ok oks single)).
Proof.
  intros H. apply do_write_cases; intros; cbn [fst].
  - exact H.
  - exact H.
  - unfold tag_ok. rewrite write_accepted_frame. now apply tag_success_common.
  - exact (tag_error (cmd_upd s orig) H).
  - exact (tag_error (cmd_upd s orig) H).
Qed.

Lemma step_tag s o : tag_ok s -> tag_ok (fst (step s o)).
Proof.
  intros H. destruct o as [r hw|rs hw|v r ok oks|ps ok oks|ok|ok|dt]; cbn [step].
  1,2: now apply do_read_tag.
  1,2: now apply do_write_tag.
  - destruct (in_states (state s) reconnecting_states), (is_backoff_tick (rtick s + 1)), ok;
      (exact H || reflexivity).
  - destruct ok, (state s); (exact H || reflexivity).
  - exact H.
Qed.

Lemma init_tag c : tag_ok (init c).
Proof. destruct c; reflexivity. Qed.

Lemma reachable_tag os : forall s, tag_ok s -> tag_ok (final s os).
Proof. exact (fold_left_inv tag_ok _ step_tag os). Qed.

Definition is_rw (o : op) : bool :=
  match o with Read _ _ | ReadBatch _ _ | Write _ _ _ _ | WriteBatch _ _ _ => true | _ => false end.

Definition edge (s : st) (o : op) (x' : rstate) : Prop :=
  x' = state s
  \/ (state s = SDisconnected /\ x' = SOK /\ o = Connect true)
  \/ (state s = SOK /\ x' = SIssue /\ is_rw o = true)
  \/ (state s = SIssue /\ x' = SOK /\ is_rw o = true)
  \/ (state s = SIssue /\ x' = SReconnect /\ is_rw o = true
      /\ t_last_success s + reconnect_timeout_seconds < now s)
  \/ (state s = SReconnect /\ x' = SError /\ is_rw o = true
      /\ t_reconnect s + error_timeout_seconds < now s)
  \/ ((state s = SReconnect \/ state s = SError) /\ x' = SOK /\ o = Tick true
      /\ is_backoff_tick (rtick s + 1) = true).

Lemma edge_stay s o : edge s o (state s).
Proof. now left. Qed.

Lemma edge_ok s o : is_rw o = true -> edge s o (ok_next (state s)).
Proof. intros Ho. unfold edge. destruct (state s); cbn; auto. do 3 right. now left. Qed.

Lemma edge_error s o :
  is_rw o = true -> edge s o (err_next (state s) (t_last_success s) (t_reconnect s) (now s)).
Proof.
  intros Ho. unfold edge. destruct (state s); cbn; auto.
  - do 2 right. now left.
  - destruct (Z.ltb_spec (t_last_success s + reconnect_timeout_seconds) (now s)); [|now left].
    do 4 right. now left.
  - destruct (Z.ltb_spec (t_reconnect s + error_timeout_seconds) (now s)); [|now left].
    do 5 right. now left.
Qed.

Lemma do_read_edge s o rs hw : is_rw o = true -> edge s o (state (fst (do_read s rs hw))).
Proof.
  intros Ho. apply do_read_cases; intros; cbn [fst].
  - apply edge_stay.
  - rewrite error_eq. now apply edge_error.
  - rewrite success_common_eq. now apply edge_ok.
Qed.

Lemma do_write_edge s o orig hw_ok oks single :
  is_rw o = true -> edge s o (state (fst (do_write s orig hw_ok oks single))).
Proof.
  intros Ho. apply do_write_cases; intros; cbn [fst].
  - exact (edge_stay s o).
  - exact (edge_stay s o).
  - rewrite write_accepted_frame, success_common_eq. now apply edge_ok.
  - unfold write_buffer. rewrite error_eq. now apply edge_error.
  - unfold write_buffer. rewrite error_eq. now apply edge_error.
Qed.

Lemma step_edge s o : edge s o (state (fst (step s o))).
Proof.
  destruct o as [r hw|rs hw|v r ok oks|ps ok oks|ok|ok|dt]; cbn [step].
  1,2: now apply do_read_edge.
  1,2: now apply do_write_edge.
  - destruct (in_states (state s) reconnecting_states) eqn:Er; [|apply edge_stay].
    destruct (is_backoff_tick (rtick s + 1)) eqn:Eb, ok; try exact (edge_stay s _).
    do 6 right. repeat split; [|exact Eb].
    unfold in_states in Er. destruct (state s); cbn in Er; try discriminate; auto.
  - destruct ok, (state s) eqn:E; try exact (edge_stay s _). right. left. auto.
  - exact (edge_stay s _).
Qed.

Lemma rw_never_raises_when_usable s o :
  is_rw o = true -> unusable s = false -> snd (step s o) <> RRaise.
Proof.
  intros Hrw Hu. destruct o as [r hw|rs hw|v r ok oks|ps ok oks|ok|ok|dt]; try discriminate; cbn [step].
  1,2: apply do_read_cases; intros; cbn [snd]; congruence.
  1,2: apply do_write_cases; intros; cbn [snd]; congruence.
Qed.

Lemma rw_raises_when_unusable s o :
  is_rw o = true -> unusable s = true -> step s o = (s, RRaise).
Proof.
  intros Hrw Hu. destruct o as [r hw|rs hw|v r ok oks|ps ok oks|ok|ok|dt]; try discriminate; cbn [step].
  1,2: apply do_read_cases; intros; congruence.
  1,2: apply do_write_cases; intros; congruence.
Qed.

Lemma do_read_lkg s rs hw :
  lkg (fst (do_read s rs hw)) =
  match hw with
  | Some vs =>
      if unusable s then lkg s else match state s with SReconnect => lkg s | _ => set_all (lkg s) (combine vs rs) end
  | None => lkg s
  end.
Proof.
  apply do_read_cases; cbn [fst].
  - intros ->. now destruct hw.
  - intros -> Hc. rewrite error_eq. proj. destruct Hc as [-> | ->]; [now destruct hw|reflexivity].
  - intros vs -> Hs ->. rewrite success_common_eq. proj. now destruct (state s).
Qed.

Lemma do_write_lkg s orig hw_ok oks single : lkg (fst (do_write s orig hw_ok oks single)) = lkg s.
Proof.
  apply do_write_cases; intros; cbn [fst]; try reflexivity.
  - now rewrite write_accepted_frame, success_common_eq.
  - unfold write_buffer. now rewrite error_eq.
  - unfold write_buffer. now rewrite error_eq.
Qed.

Lemma lkg_only_good_reads s o :
  lkg (fst (step s o)) =
  match o with
  | Read r (Some v) =>
      if unusable s then lkg s else match state s with SReconnect => lkg s | _ => set_all (lkg s) [(v, r)] end
  | ReadBatch rs (Some vs) =>
      if unusable s then lkg s else match state s with SReconnect => lkg s | _ => set_all (lkg s) (combine vs rs) end
  | _ => lkg s
  end.
Proof.
  destruct o as [r hw|rs hw|v r ok oks|ps ok oks|ok|ok|dt]; cbn [step].
  - rewrite do_read_lkg. now destruct hw.
  - apply do_read_lkg.
  - apply do_write_lkg.
  - apply do_write_lkg.
  - now destruct (in_states (state s) reconnecting_states), (is_backoff_tick (rtick s + 1)), ok.
  - now destruct ok, (state s).
  - reflexivity.
Qed.

Lemma masked_read_values s rs hw :
  unusable s = false -> (state s = SReconnect \/ hw = None) ->
  snd (do_read s rs hw) = RVals (map (aget (lkg s)) rs) /\ lkg (fst (do_read s rs hw)) = lkg s.
Proof.
  intros Hu Hc. split.
  - apply do_read_cases; [congruence| |intros vs _ Hs ->; destruct Hc; congruence].
    intros _ _. unfold lkg_values. now rewrite error_eq.
  - rewrite do_read_lkg, Hu. destruct Hc as [-> | ->]; [now destruct hw|reflexivity].
Qed.
