(* C06, second part: the execute loop, the tick and the reachability theorem. *)
From Coq Require Import ZArith List Bool Arith Lia.
From OP Require Import lib.Obs lib.ListFacts model.Eng proofs.Eng_nf proofs.Eng_state.
Import ListNotations.
Open Scope Z_scope.

(* the statement of C06 on a state *)
Definition state_function (e : E) : Prop :=
  (sys e = Stopped <-> started e = false) /\
  (sys e = Paused -> started e = true /\ paused e = true) /\
  (sys e = Holding -> started e = true /\ paused e = false /\ holding e = true) /\
  (sys e = Running -> started e = true /\ paused e = false /\ holding e = false) /\
  (sys e = Restarting -> started e = true /\ exists c, In c (reg e) /\ i_name c = Restart) /\
  (run_id e = None <-> started e = false).

Lemma Inv_state_function e : Inv e -> state_function e.
Proof.
  intros [A B _ _ [F _] _]. unfold state_function, fsys in *. rewrite F. clear F.
  destruct (started e).
  - destruct (B eq_refl) as [->|[-> R]]; [destruct (paused e), (holding e)|]; repeat split; intros; auto; discriminate.
  - destruct (A eq_refl) as [-> [-> ->]]. repeat split; intros; auto; discriminate.
Qed.

Definition tracked_ok (r : request) : Prop :=
  match r_name r with
  | CI Start | CI Stop | CI Restart | CU _ => True
  | CI _ => r_tracked r = true
  end.
(* the fault-free, untimed domain; tracked_ok: tracking knows the internal commands it is asked about *)
Definition req_ok (r : request) : Prop := r_dur r = None /\ u_fail (r_scr r) = None /\ tracked_ok r.
Definition lists_ok (e : E) : Prop :=
  Forall req_ok (exe e) /\ Forall req_ok (que e) /\ (forall r, restart_pending e = Some r -> req_ok r).
(* between two requests of the loop the registry holds only Stop / Restart instances that have yielded *)
Definition inst_ok (c : icmd) : Prop :=
  (i_name c = Stop \/ i_name c = Restart) /\ (1 <= i_pc c)%nat /\ i_durarg c = None.
Definition reg_ok (e : E) : Prop := forall c, In c (reg e) -> inst_ok c.
Definition reg_le (e' e : E) : Prop :=
  forall x, In x (reg e') -> exists y, In y (reg e) /\ i_name x = i_name y /\ i_pc x = i_pc y /\ i_durarg x = i_durarg y.

Lemma reg_le_refl e : reg_le e e.
Proof. intros x H. exists x. auto. Qed.
Lemma reg_le_trans a b c : reg_le a b -> reg_le b c -> reg_le a c.
Proof.
  intros H1 H2 x Hx. destruct (H1 x Hx) as [y [Hy [E1 [E2 E3]]]]. destruct (H2 y Hy) as [z [Hz [F1 [F2 F3]]]].
  exists z. repeat split; congruence.
Qed.
Lemma reg_le_drop e n : reg_le (drop_i e n) e.
Proof. intros x Hx. cbn in Hx. apply filter_In in Hx as [Hx _]. exists x. auto. Qed.
Lemma reg_le_put e c y : In y (reg e) -> i_name c = i_name y -> i_pc c = i_pc y -> i_durarg c = i_durarg y ->
  reg_le (put_i e c) e.
Proof.
  intros Hy E1 E2 E3 x Hx. cbn in Hx. apply in_map_iff in Hx as [z [Hz Hin]].
  destruct (iname_eqb (i_name z) (i_name c)); subst x; [exists y|exists z]; auto.
Qed.
Lemma reg_le_fin e' e n : reg_le e' e -> reg_le (fin_i e' n) (fin_i e n).
Proof.
  intros R x Hx. cbn in Hx. apply filter_In in Hx as [Hx Hn]. destruct (R x Hx) as [y [Hy [E1 E]]].
  exists y. split; [|auto]. apply filter_In. split; [exact Hy|now rewrite <- E1].
Qed.
Lemma reg_ok_le e' e : reg_le e' e -> reg_ok e -> reg_ok e'.
Proof.
  intros H R x Hx. destruct (H x Hx) as [y [Hy [E1 [E2 E3]]]]. destruct (R y Hy) as [A [B C]].
  unfold inst_ok. rewrite E1, E2, E3. auto.
Qed.
(* fin_i e (i_name c): the registry apart from the instance that is being ticked *)
Lemma reg_ok_put e c : reg_ok (fin_i e (i_name c)) -> inst_ok c -> reg_ok (put_i e c).
Proof.
  intros R K x Hx. cbn in Hx. apply in_map_iff in Hx as [z [Hz Hin]].
  destruct (iname_eqb (i_name z) (i_name c)) eqn:E; subst x; [exact K|].
  apply R. apply filter_In. split; [exact Hin|now rewrite E].
Qed.

(* the invariant carried through the execute loop *)
Record G (e : E) : Prop := { g_inv : Inv e; g_lists : lists_ok e; g_reg : reg_ok e }.
(* a state e1 met on the way from e: the registry has gained no instance since *)
Definition ok_from (e e1 : E) : Prop := Inv e1 /\ lists_ok e1 /\ reg_le e1 e.

Lemma ok_from_refl e : Inv e -> lists_ok e -> ok_from e e.
Proof. intros I L. split; [exact I|split; [exact L|apply reg_le_refl]]. Qed.

Lemma ok_from_view e0 e e' : gview e' = gview e -> ok_from e0 e -> ok_from e0 e'.
Proof.
  intros H [I [L R]]. pose proof (f_equal fst H) as C. split; [exact (Inv_core _ _ C I)|].
  unfold lists_ok, reg_le. rewrite (core_reg _ _ C). injection (f_equal snd H) as -> -> ->. exact (conj L R).
Qed.

Lemma G_view e e' : gview e' = gview e -> G e -> G e'.
Proof.
  intros H [I L R]. destruct (ok_from_view e e e' H (ok_from_refl e I L)) as [I' [L' R']].
  split; [exact I'|exact L'|exact (reg_ok_le _ _ R' R)].
Qed.

Lemma G_set_mgr e x d q rp :
  G e -> Forall req_ok x -> Forall req_ok q -> (forall r, rp = Some r -> req_ok r) -> G (set_mgr e x d q rp).
Proof. intros [I _ R] Hx Hq Hp. split; [revert I; apply Inv_core; reflexivity|exact (conj Hx (conj Hq Hp))|exact R]. Qed.

Lemma reset_ok e0 e m : ok_from e0 e -> ok_from e0 (fst (reset_manager e m)).
Proof.
  intros [I [[_ [_ C]] R]]. split; [revert I; apply Inv_core; reflexivity|split; [|exact R]].
  unfold lists_ok. cbn. repeat split; try constructor; try discriminate.
  destruct (restart_pending e) as [r|]; constructor; [now apply C|constructor].
Qed.

Lemma untracked_tk e m r : untracked (tk e m) r = true -> untracked e r = true.
Proof. destruct m as [x|]; [|exact id]. unfold untracked. cbn [tk set_trk trk]. destruct (r_name r) as [[]|]; discriminate. Qed.

Lemma req_ok_tracked_tk e m r n : req_ok r -> r_name r = CI n -> untracked (tk e m) r = false.
Proof.
  intros [_ [_ T]] H. destruct (untracked (tk e m) r) eqn:U; [|reflexivity]. apply untracked_tk in U.
  unfold untracked, tracked_ok in *. rewrite H in *. destruct n; try discriminate; rewrite T, andb_false_r in U; discriminate.
Qed.

(* src is the command that cancels: Restart spares the Restart requests, Stop cancels everything but runs only outside
   Restarting -- so the Restart instance goes only when no one needs it *)
Definition goes_on (src : iname) (e0 e : E) : Prop :=
  ok_from e0 e /\ started e = true /\ (src = Restart \/ sys e <> Restarting).

Lemma goes_on_ok src e0 e : goes_on src e0 e -> ok_from e0 e.
Proof. now intros [O _]. Qed.

Lemma goes_on_view src e0 e e' : gview e' = gview e -> goes_on src e0 e -> goes_on src e0 e'.
Proof.
  intros H [O [S N]]. split; [exact (ok_from_view _ _ _ H O)|].
  now rewrite (core_started _ _ (f_equal fst H)), (core_sys _ _ (f_equal fst H)).
Qed.

Lemma goes_on_flags src e0 e e' (pa ho sp : bool) s :
  gview e' = gview (set_sys (upd_flags e (started e) pa ho sp) s) -> goes_on src e0 e ->
  s = (if pa then Paused else if ho then Holding else Running) \/ s = Restarting /\ restart_in (reg e) /\ src = Restart ->
  goes_on src e0 e'.
Proof.
  intros H [[I [L R]] [S N]] Hs. apply (goes_on_view _ _ _ _ H). split; [split; [|split; [exact L|exact R]]|split; [exact S|]].
  - apply Inv_set_flags; [exact I|exact S|]. destruct Hs as [Hs|[Hs [Hr _]]]; auto.
  - cbn. destruct Hs as [->|[_ [_ Hs]]]; [right; destruct pa, ho; discriminate|now left].
Qed.

Lemma goes_on_set_reg src e0 e rg :
  goes_on src e0 e -> Inv (set_cmds e rg (uods e)) -> reg_le (set_cmds e rg (uods e)) e -> goes_on src e0 (set_cmds e rg (uods e)).
Proof. intros [[_ [L R]] SN] I' R'. exact (conj (conj I' (conj L (reg_le_trans _ _ _ R' R))) SN). Qed.

Lemma goes_on_hold_flag src e0 e e' (ho : bool) :
  gview e' = gview (set_sys (upd_flags e (started e) (paused e) ho (stopping e))
                            (if paused e then sys e else if ho then Holding else Running)) ->
  goes_on src e0 e -> goes_on src e0 e'.
Proof.
  intros H Lv. eapply goes_on_flags; [exact H|exact Lv|]. destruct Lv as [[I _] [S N]].
  destruct (paused e) eqn:P; [|now left].
  destruct (inv_active e I S) as [K|[K1 K2]]; [left; rewrite K; unfold fsys; now rewrite P|right].
  destruct N as [N|N]; [auto|contradiction].
Qed.

Lemma goes_on_unpause src e0 e : goes_on src e0 e -> goes_on src e0 (unpause_body e).
Proof.
  intros H. apply (goes_on_flags src e0 e _ false (holding e) (stopping e) (if holding e then Holding else Running));
    [rewrite unpause_body_eq; reflexivity|exact H|now left].
Qed.

Lemma goes_on_unhold src e0 e : goes_on src e0 e -> goes_on src e0 (unhold_body e).
Proof. apply (goes_on_hold_flag src e0 e _ false). rewrite unhold_body_eq. reflexivity. Qed.

Lemma cancel_uod_view e m r k : r_name r = CU k -> gview (fst (cancel_request e m r)) = gview e.
Proof.
  intros H. unfold cancel_request. rewrite H.
  destruct (match find_u e k with Some c => _ | None => None end) as [c|].
  - destruct (c_complete c); [now rewrite view_mark_done|].
    destruct (mark_cancelled_raises (tk e m) r); [reflexivity|]. rewrite view_mark_done. apply (view_note_cancel_m e m r).
  - rewrite cancel_unstarted_eq. cbn [fst]. destruct (mark_cancelled_raises _ r); rewrite ?view_note_cancel_m; apply view_mark_done.
Qed.

Lemma cancel_request_goes_on src e0 e m r :
  cname_eqb (r_name r) (CI src) = false -> goes_on src e0 e -> goes_on src e0 (fst (cancel_request e m r)).
Proof.
  intros Hsrc H. destruct (r_name r) as [n|k] eqn:Er; [|exact (goes_on_view _ _ _ _ (cancel_uod_view e m r k Er) H)].
  unfold cancel_request. rewrite Er. destruct (find_i e n) as [c|] eqn:Ef; [|exact H].
  destruct (find_i_spec _ _ _ Ef) as [Hin Hn].
  assert (Drop : forall e1, goes_on src e0 e1 -> goes_on src e0 (fst (mark_done (fin_i e1 n) m r))).
  { intros e1 H1. apply (goes_on_view _ _ (fin_i e1 n)); [apply view_mark_done|].
    apply goes_on_set_reg; [exact H1| |apply reg_le_drop]. destruct H1 as [[I _] [_ N]].
    apply Inv_drop_i; [exact I|]. destruct N as [->|N]; [left|now right]. intros ->. discriminate. }
  destruct (i_complete c); [now apply Drop|].
  set (e1 := match n with Pause => unpause_body e | Hold => unhold_body e | _ => e end).
  assert (H1 : goes_on src e0 e1) by (unfold e1; destruct n; auto using goes_on_unpause, goes_on_unhold).
  assert (Hin1 : In c (reg e1)) by (unfold e1; destruct n; rewrite ?unpause_body_eq, ?unhold_body_eq; exact Hin).
  destruct (mark_cancelled_raises (tk e1 m) r) eqn:Em.
  - apply goes_on_set_reg; [exact H1| |now apply (reg_le_put e1 _ c)].
    apply Inv_put_i; [apply H1|]. cbn. intros K. unfold mark_cancelled_raises in Em. rewrite Er, <- Hn, K in Em. discriminate.
  - apply Drop. revert H1. apply goes_on_view, view_note_cancel_m.
Qed.

Lemma cancel_all_goes_on src e0 e m : goes_on src e0 e -> goes_on src e0 (fst (cancel_all e m src)).
Proof.
  intros H. unfold cancel_all. rewrite let_pair. apply (fold_left_inv (fun em => goes_on src e0 (fst em))); [|exact H].
  intros em r Hem. destruct (cname_eqb (r_name r) (CI src)) eqn:Ec; [exact Hem|now apply cancel_request_goes_on].
Qed.

Definition tick_icmd_pre (c : icmd) (e : E) : Prop :=
  In c (reg e) /\ i_durarg c = None /\
  match i_name c with
  | Pause | Unpause | Hold | Unhold => started e = true /\ i_pc c = O
  | Restart => i_pc c = O -> sys e <> Restarting
  | _ => True
  end.

Lemma running_goes_on src e :
  Inv e -> lists_ok e -> sys_eqb (sys e) Stopped || sys_eqb (sys e) Restarting = false -> goes_on src e e.
Proof.
  intros I L Es. apply orb_false_iff in Es as [Es1 Es2]. apply sys_eqb_false in Es1, Es2.
  split; [now apply ok_from_refl|split; [now apply not_stopped_started|now right]].
Qed.

(* the postcondition of Finished is the side condition of Inv_drop_i: the loop finalizes the instance next *)
Lemma run_icmd_ok safe e m c :
  Inv e -> lists_ok e -> tick_icmd_pre c e ->
  let '(e1, m1, c1, o) := run_icmd safe e m c in
  ok_from e e1 /\
  match o with
  | Yielded => i_name c1 = i_name c /\ inst_ok c1 /\ i_cancelled c1 = false /\ i_complete c1 = false
  | Finished _ => i_name c <> Restart \/ sys e1 <> Restarting
  end.
Proof.
  intros I L [Hin [Hd U]]. pose proof (ok_from_refl e I L) as O. unfold run_icmd.
  assert (Lv : started e = true -> goes_on Restart e e) by (intros; split; auto).
  destruct (i_name c) eqn:En.
  - destruct (started e); [split; [exact O|left; discriminate]|]. split; [|left; discriminate].
    split; [now apply Inv_start_body|apply O].
  - destruct (i_pc c).
    + destruct (_ || _) eqn:Es; [split; [exact O|left; discriminate]|].
      assert (B : goes_on Stop e (stop_begin e)).
      { destruct (running_goes_on Stop e I L Es) as [_ SN]. split; [|exact SN]. split; [now apply Inv_flags_only|apply O]. }
      rewrite (let_pair (cancel_all _ m Stop)). split; [apply (cancel_all_goes_on _ _ _ m B)|]. unfold inst_ok. cbn. auto 6.
    + rewrite (let_pair (stop_finish safe e m)). split; [|left; discriminate].
      apply reset_ok, (ok_from_view _ (restart_stop e)); [apply stop_core_view, I|]. split; [now apply Inv_restart_stop|apply O].
  - destruct U as [S P0]. rewrite P0, Hd. split; [|left; discriminate]. apply (goes_on_ok Restart).
    apply (goes_on_flags Restart e e _ true (holding e) (stopping e) Paused);
      [rewrite pause_begin_eq; reflexivity|exact (Lv S)|now left].
  - destruct U as [S _]. split; [|left; discriminate]. now apply (goes_on_ok Restart), goes_on_unpause, Lv.
  - destruct U as [S P0]. rewrite P0, Hd. split; [|left; discriminate].
    apply (goes_on_ok Restart), (goes_on_hold_flag Restart e e _ true); [rewrite hold_begin_eq; reflexivity|exact (Lv S)].
  - destruct U as [S _]. split; [|left; discriminate]. now apply (goes_on_ok Restart), goes_on_unhold, Lv.
  - destruct (i_pc c) as [|[|k]] eqn:Ep.
    + destruct (_ || _) eqn:Es; [split; [exact O|right; now apply U]|].
      assert (B : goes_on Restart e (restart_begin e)).
      { apply (goes_on_flags Restart e e _ (paused e) (holding e) true Restarting); [reflexivity|exact (running_goes_on Restart e I L Es)|].
        right. split; [reflexivity|split; [now exists c|reflexivity]]. }
      rewrite (let_pair (cancel_all _ m Restart)). split; [apply (cancel_all_goes_on _ _ _ m B)|]. unfold inst_ok. cbn. auto 6.
    + rewrite (let_pair (restart_mid e m)). split; [|unfold inst_ok; cbn; auto 6].
      apply reset_ok. split; [now apply Inv_restart_stop|apply O].
    + split; [|right; discriminate]. split; [now apply Inv_restart_finish|apply O].
  - split; [exact O|left; discriminate].
Qed.

Lemma tick_icmd_ok safe e m c :
  Inv e -> lists_ok e -> tick_icmd_pre c e -> reg_ok (fin_i e (i_name c)) ->
  let '(e1, m1, failed, fin) := tick_icmd safe e m c in G e1.
Proof.
  intros I L U Hy. unfold tick_icmd. destruct (i_complete c) eqn:Ec.
  - split; [|exact L|exact Hy]. apply Inv_drop_i; [exact I|]. left. intros K.
    destruct U as [Hin _]. destruct (inv_reg e I c Hin K). congruence.
  - pose proof (run_icmd_ok safe e m c I L U) as K. destruct (run_icmd safe e m c) as [[[e1 m1] c1] o].
    destruct K as [[I1 [L1 R1]] O1]. pose proof (reg_ok_le _ _ (reg_le_fin _ _ (i_name c) R1) Hy) as Hy1.
    destruct o as [|f].
    + destruct O1 as [N1 [K1 [C1 C2]]]. split; [apply Inv_put_i; auto|exact L1|]. apply reg_ok_put; [now rewrite N1|exact K1].
    + split; [now apply Inv_drop_i|exact L1|exact Hy1].
Qed.

Lemma untracked_started e r : Inv e -> untracked e r = true -> started e = true.
Proof.
  intros I H. rewrite <- (inv_trk e I). unfold untracked in H.
  destruct (r_name r) as [[]|]; try discriminate; apply andb_true_iff in H as [H _]; exact H.
Qed.

Definition raise_ok (e : E) (raised : bool) : Prop := raised = true -> started e = true.
Definition after (er : E * mgr * bool) : Prop := G (fst (fst er)) /\ raise_ok (fst (fst er)) (snd er).

Lemma after_mark e m r n : G e -> req_ok r -> r_name r = CI n ->
  after (let '(e1, m1) := mark_done e m r in (e1, m1, untracked (tk e1 m1) r)).
Proof.
  intros Ge Hr Hn. rewrite let_pair. split; [exact (G_view _ _ (view_mark_done e m r) Ge)|].
  cbn [fst snd]. now rewrite (req_ok_tracked_tk _ _ r n Hr Hn).
Qed.

Lemma after_tick (t : E * mgr * bool * bool) r n :
  req_ok r -> r_name r = CI n -> (let '(e1, _, _, _) := t in G e1) ->
  after (let '(e1, m1, failed, fin) := t in
         if failed || fin then let '(e2, m2) := mark_done e1 m1 r in (e2, m2, untracked (tk e2 m2) r) else (e1, m1, false)).
Proof.
  intros Hr Hn. destruct t as [[[e1 m1] failed] fin]. intros Ge.
  destruct (failed || fin); [now apply (after_mark e1 m1 r n)|]. split; [exact Ge|discriminate].
Qed.

Lemma exec_internal_ok safe e m r n :
  G e -> req_ok r -> r_name r = CI n -> after (exec_internal safe e m r n).
Proof.
  intros [I L R] Hreq Hname. pose proof Hreq as [Hd _]. unfold exec_internal.
  destruct (find_i e n) as [c|] eqn:Ef.
  - destruct (find_i_spec _ _ _ Ef) as [Hin Hn]. destruct (R c Hin) as [Nm [Pc Dr]].
    pose proof (reg_ok_le _ _ (reg_le_drop e n) R) as Rd.
    destruct (i_cancelled c) eqn:Ecc.
    + apply (after_mark _ m r n); [|exact Hreq|exact Hname]. split; [|exact L|exact Rd].
      apply Inv_drop_i; [exact I|]. left. intros K. rewrite K in Hn. destruct (inv_reg e I c Hin Hn). congruence.
    + apply (after_tick _ r n); [exact Hreq|exact Hname|]. apply tick_icmd_ok; [exact I|exact L| |now rewrite Hn].
      split; [exact Hin|split; [exact Dr|]]. destruct Nm as [K|K]; rewrite K; [exact Logic.I|lia].
  - destruct ((match n with Pause | Unpause | Hold | Unhold => true | _ => false end) && negb (started e)) eqn:Efix.
    + rewrite let_pair. split; [exact (G_view _ _ (view_mark_done e m r) (Build_G e I L R))|discriminate].
    + set (c := mk_icmd r n).
      set (e0 := set_cmds e (reg e ++ [c]) (uods e)).
      set (e1 := match n with
                 | Restart => match m with None => set_mgr e0 (exe e0) (done e0) (que e0) (Some r) | Some _ => e0 end
                 | _ => e0 end).
      assert (Hnone : forall y, In y (reg e) -> i_name y <> n).
      { intros y Hy K. apply (find_none _ _ Ef) in Hy. now rewrite K, iname_eqb_refl in Hy. }
      assert (C1 : core e1 = core e0) by (unfold e1; destruct n; try reflexivity; destruct m; reflexivity).
      assert (L1 : lists_ok e1).
      { unfold e1. destruct n; try exact L. destruct m; [exact L|]. destruct L as [A [B _]]. split; [exact A|split; [exact B|]].
        cbn. intros r' Hr'. injection Hr' as <-. exact Hreq. }
      rewrite (req_ok_tracked_tk e1 m r n Hreq Hname).
      apply (after_tick _ r n); [exact Hreq|exact Hname|]. apply tick_icmd_ok; [|exact L1| |].
      * apply (Inv_core e0); [exact C1|]. apply Inv_set_reg; [exact I| |].
        -- intros _ [x [Hx Kx]]. exists x. split; [apply in_or_app; now left|exact Kx].
        -- intros x Hx Kx. apply in_app_or in Hx as [Hx|[<-|[]]]; [now apply (inv_reg e I)|split; reflexivity].
      * split; [rewrite (core_reg _ _ C1); apply in_or_app; right; now left|split; [exact Hd|]].
        rewrite (core_started _ _ C1), (core_sys _ _ C1). cbn.
        destruct n; try exact Logic.I; try (cbn in Efix; destruct (started e); [auto|discriminate]).
        intros _ Ks. destruct (Inv_state_function e I) as [_ [_ [_ [_ [Q _]]]]].
        destruct (Q Ks) as [_ [y [Hy1 Hy2]]]. exact (Hnone y Hy1 Hy2).
      * intros x Hx. cbn in Hx. rewrite (core_reg _ _ C1) in Hx. apply filter_In in Hx as [Hx Kx]. apply negb_true_iff in Kx.
        apply in_app_or in Hx as [Hx|[<-|[]]]; [now apply R|]. cbn in Kx. now rewrite iname_eqb_refl in Kx.
Qed.

Lemma fold_cancel_uod_view (f : E * mgr -> request -> E * mgr) :
  (forall em c, f em c = em \/ exists k, r_name c = CU k /\ f em c = cancel_request (fst em) (snd em) c) ->
  forall l em, gview (fst (fold_left f l em)) = gview (fst em).
Proof.
  intros H l em. apply (fold_left_rel (fun a b => gview (fst b) = gview (fst a))); [reflexivity|congruence|].
  intros em' c. destruct (H em' c) as [->|[k [Hk ->]]]; [reflexivity|exact (cancel_uod_view _ _ _ k Hk)].
Qed.

Lemma exec_uod_ok overlaps e m r n :
  u_fail (r_scr r) = None ->
  let res := exec_uod overlaps e m r n in
  gview (fst (fst res)) = gview e /\ (snd res = true -> untracked (fst (fst res)) r = true).
Proof.
  intros Hf. unfold exec_uod. rewrite Hf.
  destruct (fold_left _ _ _) as [e1 m1] eqn:F1.
  assert (V1 : gview e1 = gview e).
  { change e1 with (fst (e1, m1)). rewrite <- F1. apply fold_cancel_uod_view. intros em c.
    destruct (r_name c) as [x|k] eqn:En; [now left|]. destruct (_ && _); eauto. }
  clear F1. destruct (fold_left _ _ _) as [e2 m2] eqn:F2.
  assert (V2 : gview e2 = gview e1).
  { change e2 with (fst (e2, m2)). rewrite <- F2. apply fold_cancel_uod_view. intros em c.
    destruct (r_name c) as [x|k] eqn:En; [now left|]. destruct (_ && _); eauto. }
  (* one walk for the instance found and the new one *)
  destruct (match find_u e2 n with Some c => (e2, c) | None => _ end) as [e3 c] eqn:F3.
  assert (V3 : gview e3 = gview e) by (rewrite <- V1, <- V2; destruct (find_u e2 n); inversion F3; reflexivity).
  clear F2 F3 V1 V2.
  destruct (c_cancelled c).
  { rewrite let_pair. split; [|discriminate]. cbn [fst]. now rewrite view_mark_done. }
  set (e4 := if c_init c then e3 else put_u (emit e3 (EUInit n (c_id c))) (inited c)).
  assert (V4 : gview e4 = gview e) by (unfold e4; destruct (c_init c); exact V3). clearbody e4.
  destruct (negb (c_started c) && untracked (tk e4 m2) r) eqn:Eu.
  { split; [exact V4|]. intros _. apply andb_true_iff in Eu as [_ Eu]. exact (untracked_tk _ _ _ Eu). }
  destruct (c_complete c).
  { rewrite let_pair. split; [|discriminate]. cbn [fst]. now rewrite view_mark_done. }
  cbv zeta.
  set (e6 := match u_out (r_scr r) with Some (o, v) => set_out_by (r_user r) _ o _ | None => _ end).
  assert (V6 : gview e6 = gview e) by (unfold e6; destruct (u_out (r_scr r)) as [[o v]|]; exact V4). clearbody e6.
  destruct (Z.of_nat (u_dur (r_scr r)) <=? c_iter c + 1); [|split; [exact V6|discriminate]].
  rewrite let_pair. split; [|discriminate]. cbn [fst]. now rewrite view_mark_done.
Qed.

Lemma exec_loop_ok safe overlaps todo : forall e m,
  G e -> Forall req_ok todo -> after (exec_loop safe overlaps e m todo).
Proof.
  induction todo as [|r todo IH]; intros e m Ge Hok; cbn [exec_loop]; [split; [exact Ge|discriminate]|].
  inversion Hok as [|r' l' Hr Hl]; subst.
  destruct (memn (r_id r) (m_done e m)); [now apply IH|].
  destruct (r_name r) as [n|n] eqn:En.
  - pose proof (exec_internal_ok safe e m r n Ge Hr En) as [G1 R1].
    destruct (exec_internal safe e m r n) as [[e1 m1] raised]. destruct raised; [split; assumption|now apply IH].
  - destruct Hr as [_ [Hf _]]. pose proof (exec_uod_ok overlaps e m r n Hf) as [V1 R1].
    destruct (exec_uod overlaps e m r n) as [[e1 m1] raised]. cbn [fst snd] in *.
    pose proof (G_view _ _ V1 Ge) as G1. destruct raised; [|now apply IH].
    split; [exact G1|]. intros _. exact (untracked_started e1 r (g_inv e1 G1) (R1 eq_refl)).
Qed.

Lemma execute_commands_ok safe overlaps e :
  G e -> let res := execute_commands safe overlaps e in G (fst res) /\ raise_ok (fst res) (snd res).
Proof.
  intros Ge. destruct (g_lists e Ge) as [Lx [Lq Lp]]. unfold execute_commands.
  set (e0 := set_mgr e (rev (que e) ++ exe e) [] [] (restart_pending e)).
  assert (T0 : Forall req_ok (exe e0)) by (apply Forall_app; split; [apply Forall_rev, Lq|exact Lx]).
  pose proof (exec_loop_ok safe overlaps (exe e0) e0 None (G_set_mgr e _ _ _ _ Ge T0 (Forall_nil _) Lp) T0) as [G1 R1].
  destruct (exec_loop safe overlaps e0 None (exe e0)) as [[e1 m1] raised]. cbn [fst snd] in *.
  destruct m1 as [own|]; cbn [fst snd]; split; try assumption.
  destruct (g_lists e1 G1) as [A1 [B1 C1]]. apply G_set_mgr; auto. exact (incl_Forall (incl_filter _ _) A1).
Qed.

(* Fault-free operations of the untimed domain.  A user Info is left out: requested while no run is active it is unknown
   to tracking, and when a Start requested after it runs before it in the same tick (the queue is taken newest first)
   marking it as started raises; the Info instance then stays in the registry, which reg_ok excludes. *)
Definition tick_ok (i : tick_in) : Prop :=
  t_read_ok i = true /\ t_write_ok i = true /\ t_interp_raises i = false /\
  Forall (fun r => r_dur r = None /\ u_fail (r_scr r) = None) (t_interp i).
Definition op_ok (o : op) : Prop :=
  match o with
  | OTick i => tick_ok i
  | OUser r n => r_name r = CI n /\ n <> Info /\ r_dur r = None /\ u_fail (r_scr r) = None
  | OUserUod r => (exists k, r_name r = CU k) /\ r_dur r = None /\ u_fail (r_scr r) = None
  | OSetOut _ _ | ONop => True
  end.

(* the same with ticks in which the interpreter raises: the error state it leads to keeps G as well *)
Definition tick_ok_raising (i : tick_in) : Prop :=
  t_read_ok i = true /\ t_write_ok i = true /\ Forall (fun r => r_dur r = None /\ u_fail (r_scr r) = None) (t_interp i).
Definition op_ok_raising (o : op) : Prop := match o with OTick i => tick_ok_raising i | _ => op_ok o end.
Lemma op_ok_weaken o : op_ok o -> op_ok_raising o.
Proof. destruct o; cbn; [|auto..]. intros [Hr [Hw [_ Hi]]]. repeat split; assumption. Qed.

Lemma G_schedule e r : G e -> req_ok (stamp e r) -> G (schedule e r).
Proof.
  intros Ge H. destruct (g_lists e Ge) as [Lx [Lq Lp]]. apply G_set_mgr; auto.
  apply Forall_app. split; [exact Lq|]. constructor; [exact H|constructor].
Qed.

Lemma stamp_ok_running e r : started e = true -> Inv e -> r_dur r = None -> u_fail (r_scr r) = None -> req_ok (stamp e r).
Proof.
  intros S I H1 H2. unfold req_ok, stamp, tracked_ok. cbn. repeat split; auto.
  rewrite (inv_trk e I), S. destruct (r_name r) as [[]|]; auto.
Qed.

Lemma tick_G safe overlaps e i : G e -> tick_ok_raising i -> G (tick safe overlaps e i).
Proof.
  intros Ge [Hr [Hw Hi]]. unfold tick. rewrite Hr, Hw.
  set (e0 := set_now e (t_time i) true).
  assert (G0 : G e0).
  { apply (G_view e); [|exact Ge]. unfold gview, core. cbn. now rewrite (inv_wok e (g_inv e Ge)). }
  set (e2 := if interp_runs e0 then _ else e0).
  assert (G2 : G e2).
  { unfold e2. destruct (interp_runs e0) eqn:Er; [|exact G0].
    assert (S0 : started e0 = true) by (unfold interp_runs in Er; destruct (started e0); [reflexivity|discriminate]).
    destruct (fold_left_inv_in (fun e' => G e' /\ started e' = true) schedule (t_interp i)) with (s := e0) as [G1 S1];
      [|exact (conj G0 S0)|].
    - intros e' r Hin [Ge' S']. destruct (proj1 (Forall_forall _ _) Hi r Hin) as [H1 H2]. split; [|exact S'].
      apply G_schedule; [exact Ge'|]. now apply stamp_ok_running; [|apply Ge'| |].
    - set (e' := fold_left schedule (t_interp i) e0) in *.
      assert (V : gview (match iticks e' with O => set_iticks e' 1 | S O => set_iticks (root_push e') 2 | _ => e' end) = gview e')
        by (destruct (iticks e') as [|[|k]]; reflexivity).
      pose proof (G_view _ _ V G1) as G1'. destruct (t_interp_raises i); [|exact G1'].
      destruct G1' as [I1 L1 R1]. split; [|exact L1|exact R1]. apply Inv_error_state; [exact I1|].
      now rewrite (core_started _ _ (f_equal fst V)). }
  set (e3 := if started e2 then update_clocks e2 (t_dt i) else e2).
  assert (G3 : G e3) by (unfold e3; destruct (started e2); [revert G2; apply G_view, view_update_clocks|exact G2]).
  pose proof (execute_commands_ok safe overlaps e3 G3) as [G4 R4].
  destruct (execute_commands safe overlaps e3) as [e4 raised]. cbn [fst snd] in *.
  set (e5 := if raised then set_error_state e4 else e4).
  assert (G5 : G e5).
  { unfold e5. destruct raised; [|exact G4]. destruct G4 as [I4 L4 Rg4].
    split; [apply Inv_error_state; auto|exact L4|exact Rg4]. }
  apply (G_view e5); [apply view_write_image, (inv_wok _ (g_inv _ G5))|exact G5].
Qed.

Lemma validate_started e n : Inv e -> validate e n = true ->
  match n with Pause | Unpause | Hold | Unhold => started e = true | _ => True end.
Proof.
  intros I V. destruct n; try exact Logic.I; cbn in V;
    apply andb_true_iff in V as [V _]; apply negb_true_iff in V; apply orb_false_iff in V as [V _];
    apply sys_eqb_false in V; now apply not_stopped_started.
Qed.

Lemma step_G safe overlaps e o : G e -> op_ok_raising o -> G (fst (step safe overlaps e o)).
Proof.
  intros Ge Ho. destruct o as [i|r n|r|o v|]; cbn [step op_ok_raising op_ok] in *.
  - now apply tick_G.
  - destruct Ho as [Hn [Hi [H1 H2]]]. destruct (validate e n) eqn:V; [|exact Ge].
    apply G_schedule; [exact Ge|]. unfold req_ok, stamp, tracked_ok. cbn. repeat split; auto. rewrite Hn.
    pose proof (validate_started e n (g_inv e Ge) V) as S.
    destruct n; auto; try congruence; rewrite (inv_trk e (g_inv e Ge)); exact S.
  - destruct Ho as [[k Hk] [H1 H2]]. apply G_schedule; [exact Ge|].
    unfold req_ok, stamp, tracked_ok. cbn. rewrite Hk. auto.
  - revert Ge. apply G_view. reflexivity.
  - exact Ge.
Qed.

Lemma G_init safe n outs0 : G (boot safe (init n outs0)).
Proof.
  apply (G_view (init n outs0)); [rewrite boot_eq; reflexivity|]. split.
  - apply Inv_of_stopped; try reflexivity. intros c [].
  - repeat split; try constructor; discriminate.
  - intros c [].
Qed.

Theorem reachable_G_raising safe overlaps n outs0 ops :
  Forall op_ok_raising ops ->
  G (fold_left (fun e o => fst (step safe overlaps e o)) ops (boot safe (init n outs0))).
Proof.
  intros H. apply fold_left_inv_in; [|apply G_init].
  intros e o Ho Ge. apply step_G; [exact Ge|exact (proj1 (Forall_forall _ _) H o Ho)].
Qed.

Theorem reachable_G safe overlaps n outs0 ops :
  Forall op_ok ops ->
  G (fold_left (fun e o => fst (step safe overlaps e o)) ops (boot safe (init n outs0))).
Proof. intros H. apply reachable_G_raising. revert H. apply Forall_impl, op_ok_weaken. Qed.
