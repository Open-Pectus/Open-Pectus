(* What the state operations of the interpreter model do: the equations and case lemmas through which the proofs about
   the model use set_ns, mark_completed, try_activate, the registration of interrupts and the interrupt map. *)
From Coq Require Import ZArith List Bool Arith Lia.
From OP Require Import lib.Obs lib.ListFacts model.Interp model.InterpRun.
Import ListNotations.
Open Scope Z_scope.

Lemma memn_In x l : memn x l = true <-> In x l.
Proof. apply existsb_eqb_In. Qed.

Lemma nth_upd {A} (l : list A) : forall n m x d,
  nth m (upd l n x) d = if Nat.eqb m n && Nat.ltb n (length l) then x else nth m l d.
Proof.
  induction l as [|y l IH]; intros n m x d; cbn [upd].
  - cbn [length]. replace (Nat.ltb n 0) with false by (symmetry; apply Nat.ltb_ge; lia). rewrite andb_false_r. destruct m; reflexivity.
  - destruct n as [|n], m as [|m]; cbn [nth upd length]; try reflexivity.
    rewrite IH. change (Nat.eqb (Datatypes.S m) (Datatypes.S n)) with (Nat.eqb m n).
    change (Nat.ltb (Datatypes.S n) (Datatypes.S (length l))) with (Nat.ltb n (length l)). reflexivity.
Qed.
Lemma upd_length {A} (l : list A) i x : length (upd l i x) = length l.
Proof. revert i. induction l as [|y l IH]; intros [|i]; cbn [upd length]; auto. Qed.

Lemma st_set_ns s n x m : st (set_ns s n x) m = if Nat.eqb m n && Nat.ltb n (length (nodes s)) then x else st s m.
Proof. unfold st, set_ns. cbn [nodes]. apply nth_upd. Qed.
Lemma st_set_ns_cases s n x m : st (set_ns s n x) m = st s m \/ (m = n /\ st (set_ns s n x) m = x).
Proof.
  rewrite st_set_ns. destruct (Nat.eqb m n && Nat.ltb n (length (nodes s))) eqn:E; [right|now left].
  apply andb_prop in E as [E _]. apply Nat.eqb_eq in E. now split.
Qed.
Lemma st_set_ns_neq s n x m : m <> n -> st (set_ns s n x) m = st s m.
Proof. intros N. destruct (st_set_ns_cases s n x m) as [E|[E _]]; [exact E|contradiction]. Qed.
Lemma st_set_ns_eq s n x : (n < length (nodes s))%nat -> st (set_ns s n x) n = x.
Proof. intros L. rewrite st_set_ns, Nat.eqb_refl. apply Nat.ltb_lt in L. now rewrite L. Qed.

Lemma set_ns_rel (A : nat -> ns -> ns -> Prop) s n x :
  (forall m, A m (st s m) (st s m)) -> A n (st s n) x -> forall m, A m (st s m) (st (set_ns s n x) m).
Proof. intros Hr H m. destruct (st_set_ns_cases s n x m) as [->|[-> ->]]; [apply Hr|exact H]. Qed.
Lemma set_ns_field {B} (g : ns -> B) s n x m : g x = g (st s n) -> g (st (set_ns s n x) m) = g (st s m).
Proof. intros E. now apply (set_ns_rel (fun _ y z => g z = g y)). Qed.
(* A setter h of some fields, with h x (cur x) = x: when node n goes through h, every node has gone through h with some
   argument, so a field that h does not set keeps its value by reflexivity. *)
Section Setter.
  Context {B : Type} (h : ns -> B -> ns) (cur : ns -> B).
  Hypothesis h_cur : forall x, h x (cur x) = x.
  Lemma st_same_ex s m : exists b, st s m = h (st s m) b.
  Proof. exists (cur (st s m)). now rewrite h_cur. Qed.
  Lemma st_upd_ex s n b m : exists b', st (set_ns s n (h (st s n) b)) m = h (st s m) b'.
  Proof. destruct (st_set_ns_cases s n (h (st s n) b) m) as [->|[-> ->]]; [apply st_same_ex|eauto]. Qed.
End Setter.

Lemma st_init p n : st (init p) n = ns0.
Proof. unfold st, init. cbn [nodes]. apply nth_repeat. Qed.

Lemma mark_completed_cases s n : mark_completed s n = s \/ mark_completed s n = complete s n.
Proof. unfold mark_completed, complete. destruct (failed (st s n)); [now left|now right]. Qed.
Lemma complete_cmd_cases p s n : complete_cmd p s n = s \/ complete_cmd p s n = mark_completed s n.
Proof.
  unfold complete_cmd. destruct (n_kind (nd p n)); try now left. destruct (started (st s n) && negb (completed (st s n))); auto.
Qed.
Lemma st_complete s n m : exists b, st (complete s n) m = set_completed (st s m) b.
Proof. apply (st_upd_ex set_completed completed). now intros []. Qed.
Lemma st_mark_completed s n m : exists b, st (mark_completed s n) m = set_completed (st s m) b.
Proof.
  destruct (mark_completed_cases s n) as [->| ->]; [|apply st_complete]. apply (st_same_ex set_completed completed). now intros [].
Qed.

Lemma try_activate_cases e s n s' : try_activate e s n = Some s' ->
  s' = s \/ (s' = set_ns s n (set_cond (st s n) true (interrupt_registered (st s n)) (run_count (st s n)))
             /\ cancelled (st s n) = false
             /\ (forced (st s n) = true \/ (memn n (e_cond_err e) = false /\ memn n (e_cond_true e) = true))).
Proof.
  unfold try_activate. destruct (cancelled (st s n)); [intros H; inversion H; now left|].
  destruct (forced (st s n)); [intros H; inversion H; right; auto|].
  destruct (memn n (e_cond_err e)); [discriminate|].
  destruct (memn n (e_cond_true e)); intros H; inversion H; [right; auto|now left].
Qed.

Lemma put_int_In l n g x : In x (put_int l n g) -> In x l \/ x = (n, g).
Proof.
  induction l as [|[m g0] l IH]; cbn [put_int In]; [intros [H|[]]; now right|].
  destruct (Nat.eqb m n) eqn:E; cbn [In].
  - apply Nat.eqb_eq in E. subst m. intros [H|H]; [now right|left; now right].
  - intros [H|H]; [left; now left|]. destruct (IH H) as [A|A]; [left; now right|now right].
Qed.
Lemma del_int_In l n x : In x (del_int l n) <-> In x l /\ fst x <> n.
Proof. unfold del_int. rewrite filter_In, negb_true_iff, Nat.eqb_neq. reflexivity. Qed.
Lemma write_back_entry l n sr k x : In x (write_back l n sr k) ->
  In x l \/ exists k0, In (fst x, (fst (snd x), k0)) l /\ snd (snd x) = k.
Proof.
  induction l as [|[m [sr0 k0]] l IH]; cbn [write_back]; [intros []|].
  destruct (Nat.eqb m n && Nat.eqb sr0 sr); cbn [In].
  - intros [<-|H]; [right; exists k0; split; [now left|reflexivity]|left; now right].
  - intros [H|H]; [left; now left|]. destruct (IH H) as [A|[k1 [A B]]]; [left; now right|right; exists k1; split; [now right|exact B]].
Qed.

Section Prog.
  Variable p : program.

  Lemma nd_overflow n : (length p <= n)%nat -> nd p n = {| n_kind := KError; n_parent := None; n_children := []; n_thr := false |}.
  Proof. apply nth_overflow. Qed.

  (* a scope whose body may run repeatedly: an Alarm (re-arms) or a Macro (called again) *)
  Definition repeats (a : nat) : Prop := n_kind (nd p a) = KAlarm \/ exists nm, n_kind (nd p a) = KMacro nm.

  Let set_ir (x : ns) (i : bool) : ns := set_cond x (activated x) i (run_count x).
  Let set_ir_cur x : set_ir x (interrupt_registered x) = x. Proof. now destruct x. Qed.
  Lemma st_register s n m : exists i, st (register_interrupt p s n) m = set_cond (st s m) (activated (st s m)) i (run_count (st s m)).
  Proof.
    unfold register_interrupt. destruct (in_ended_block p s n); [exact (st_same_ex set_ir _ set_ir_cur s m)|].
    exact (st_upd_ex set_ir _ set_ir_cur (with_ints s _ _) n true m).
  Qed.
  Lemma register_ints s n x : In x (ints (register_interrupt p s n)) -> In x (ints s) \/ x = (n, (serial s, [FVisit n])).
  Proof. unfold register_interrupt. destruct (in_ended_block p s n); [now left|]. apply put_int_In. Qed.

  Lemma in_ended_block_iff s n : in_ended_block p s n = true <->
    exists a, In a (ancestors p n) /\ is_block p a = true /\ block_ended (st s a) = true.
  Proof.
    unfold in_ended_block. rewrite existsb_exists. split; intros [a H]; exists a; rewrite andb_true_iff in *; exact H.
  Qed.
End Prog.
