(* Proofs that the composite hardware's batch read and write (model/C25.v) do what register-by-register access
   does. They turn on `entries`: routing a batch through the layers yields, for each register of the batch, exactly
   the entry with its own value, so a lookup in the collected result finds that value whatever the layer order. *)
From Coq Require Import ZArith List Bool Arith.
From OP Require Import lib.Obs lib.ListFacts model.C25.
Import ListNotations.
Open Scope Z_scope.

Lemma assoc_app a b r :
  assoc (a ++ b) r = match assoc a r with Some v => Some v | None => assoc b r end.
Proof.
  induction a as [|e a IH]; cbn; [reflexivity|].
  destruct (Nat.eqb (fst e) r); [reflexivity|exact IH].
Qed.

Lemma assoc_cases d r : match assoc d r with Some v => In (r, v) d | None => forall v, ~ In (r, v) d end.
Proof.
  induction d as [|[r0 v0] d IH]; cbn; [tauto|]. destruct (Nat.eqb_spec r0 r) as [->|N]; [now left|].
  destruct (assoc d r); [now right|]. intros v [E|H]; [congruence|exact (IH v H)].
Qed.

Lemma In_dedup x l : forall seen, In x (dedup l seen) <-> In x l /\ ~ In x seen.
Proof.
  induction l as [|y l IH]; intros seen; cbn; [tauto|].
  destruct (existsb (Nat.eqb y) seen) eqn:E; cbn; rewrite IH; cbn.
  - apply existsb_eqb_In in E. split; [tauto|]. intros [[->|H] N]; tauto.
  - assert (~ In y seen) by (rewrite <- existsb_eqb_In; congruence). destruct (Nat.eq_dec y x) as [->|]; [split; auto|tauto].
Qed.

Lemma dedup_nodup l : forall seen, NoDup (dedup l seen) /\ (forall x, In x (dedup l seen) -> ~ In x seen).
Proof.
  intros seen. split; [|intros x H; exact (proj2 (proj1 (In_dedup x l seen) H))]. revert seen.
  induction l as [|y l IH]; intros seen; cbn; [constructor|].
  destruct (existsb (Nat.eqb y) seen); [apply IH|]. constructor; [|apply IH]. rewrite In_dedup. cbn. tauto.
Qed.

Lemma layer_in_order lay rs r : In r rs -> In (layer_of lay r) (layer_order lay rs).
Proof. intros H. apply In_dedup. split; [now apply in_map|tauto]. Qed.

Definition entries (lay : list nat) (f : reg -> Z) (rs : list reg) : list (reg * Z) :=
  flat_map (fun L => let rl := regs_of lay L rs in combine rl (map f rl)) (layer_order lay rs).

Lemma in_entries lay f rs r v : In (r, v) (entries lay f rs) <-> In r rs /\ v = f r.
Proof.
  unfold entries. rewrite in_flat_map. split.
  - intros [L [_ He]]. rewrite combine_map_r in He. apply in_map_iff in He as [r' [[= <- <-] Hr]].
    apply filter_In in Hr as [Hr _]. now split.
  - intros [Hr ->]. exists (layer_of lay r). split; [now apply layer_in_order|].
    rewrite combine_map_r. apply (in_map (fun x => (x, f x))), filter_In. split; [exact Hr|apply Nat.eqb_refl].
Qed.

Lemma assoc_entries lay f rs r :
  assoc (rev (entries lay f rs)) r = if in_dec Nat.eq_dec r rs then Some (f r) else None.
Proof.
  pose proof (assoc_cases (rev (entries lay f rs)) r) as C.
  destruct (assoc _ r) as [v|]; [rewrite <- in_rev, in_entries in C|]; destruct (in_dec Nat.eq_dec r rs) as [Hin|Hn].
  - now destruct C as [_ ->].
  - tauto.
  - elim (C (f r)). rewrite <- in_rev, in_entries. now split.
  - reflexivity.
Qed.

Lemma comp_read_spec lay m rs : comp_read lay m rs = map (mget m) rs.
Proof.
  unfold comp_read. apply map_ext_in. intros r Hr.
  fold (entries lay (mget m) rs). rewrite assoc_entries.
  destruct (in_dec Nat.eq_dec r rs); [reflexivity|contradiction].
Qed.

Definition meq (m1 m2 : mem) : Prop := forall r, mget m1 r = mget m2 r.

Lemma seq_write_list P : forall m, fold_left write1 P m = value_dict P ++ m.
Proof.
  unfold value_dict. induction P as [|p P IH]; intros m; cbn; [reflexivity|].
  rewrite IH. unfold write1. now rewrite <- app_assoc.
Qed.

Lemma apply_call_list c m : apply_call m c = rev (snd c) ++ m.
Proof.
  unfold apply_call. revert m. induction (snd c) as [|e d IH]; intros m; cbn; [reflexivity|].
  rewrite IH, <- app_assoc. destruct e. reflexivity.
Qed.

Lemma apply_calls_list cs : forall m,
  fold_left apply_call cs m = rev (flat_map snd cs) ++ m.
Proof.
  induction cs as [|c cs IH]; intros m; cbn; [reflexivity|].
  rewrite IH, apply_call_list, rev_app_distr, <- app_assoc. reflexivity.
Qed.

Lemma layer_calls_entries lay vs rs :
  flat_map snd (layer_calls lay vs rs)
  = entries lay (look (combine vs rs)) (map snd (combine vs rs)).
Proof.
  unfold layer_calls, entries. induction (layer_order lay (map snd (combine vs rs))) as [|L Ls IH]; cbn;
    [reflexivity|]. now rewrite IH.
Qed.

Lemma in_value_dict P r v : In (r, v) (value_dict P) <-> In (v, r) P.
Proof.
  unfold value_dict. rewrite <- in_rev, in_map_iff. split.
  - intros [[v' r'] [[= <- <-] H]]. exact H.
  - intros H. now exists (v, r).
Qed.

Lemma assoc_value_dict P r :
  assoc (value_dict P) r = if in_dec Nat.eq_dec r (map snd P) then Some (look P r) else None.
Proof.
  unfold look. pose proof (assoc_cases (value_dict P) r) as C.
  destruct (assoc _ r) as [v|]; destruct (in_dec Nat.eq_dec r (map snd P)) as [Hin|Hn].
  - reflexivity.
  - elim Hn. apply in_value_dict in C. now apply (in_map snd) in C.
  - apply in_map_iff in Hin as [[v r'] [E Hp]]. cbn in E. subst r'. elim (C v). now apply in_value_dict.
  - reflexivity.
Qed.

Lemma comp_write_spec lay m vs rs :
  meq (comp_write lay m vs rs) (fold_left write1 (combine vs rs) m).
Proof.
  intros r. unfold comp_write, mget. rewrite apply_calls_list, seq_write_list, layer_calls_entries.
  now rewrite !assoc_app, assoc_entries, assoc_value_dict.
Qed.

Lemma meq_seq_write P m1 m2 : meq m1 m2 -> meq (fold_left write1 P m1) (fold_left write1 P m2).
Proof.
  intros H r. rewrite !seq_write_list. unfold mget. rewrite !assoc_app.
  destruct (assoc (value_dict P) r); [reflexivity|apply H].
Qed.

Lemma step_refines lay o m1 m2 : meq m1 m2 ->
  snd (fst (comp_step lay m1 o)) = snd (spec_step m2 o)
  /\ meq (fst (fst (comp_step lay m1 o))) (fst (spec_step m2 o)).
Proof.
  intros H. destruct o as [rs|vs rs|r|v r|v r]; cbn.
  - split; [|exact H]. rewrite comp_read_spec. apply map_ext. exact H.
  - split; [reflexivity|]. intros r. rewrite comp_write_spec. now apply meq_seq_write.
  - split; [|exact H]. now rewrite (H r).
  - split; [reflexivity|]. exact (meq_seq_write [(v, r)] _ _ H).
  - split; [reflexivity|]. exact (meq_seq_write [(v, r)] _ _ H).
Qed.

Lemma run_refines lay os : forall m1 m2, meq m1 m2 ->
  fst (fst (comp_run lay m1 os)) = fst (spec_run m2 os)
  /\ meq (snd (comp_run lay m1 os)) (snd (spec_run m2 os)).
Proof.
  induction os as [|o os IH]; intros m1 m2 H; cbn [comp_run spec_run]; [split; [reflexivity|exact H]|].
  destruct (step_refines lay o m1 m2 H) as [Eo Hm].
  destruct (comp_step lay m1 o) as [[m1' out] calls]. destruct (spec_step m2 o) as [m2' sout]. cbn in Eo, Hm.
  destruct (IH _ _ Hm) as [Ho Hf].
  destruct (comp_run lay m1' os) as [[outs log] mf]. destruct (spec_run m2' os) as [souts smf].
  cbn in *. split; [congruence|exact Hf].
Qed.

Lemma look_unique P v r : NoDup (map snd P) -> In (v, r) P -> look P r = v.
Proof.
  intros Hnd Hin. unfold look. pose proof (assoc_cases (value_dict P) r) as C. destruct (assoc _ r) as [v'|].
  - apply in_value_dict in C. now injection (NoDup_map_inj snd P _ _ Hnd C Hin eq_refl).
  - elim (C v). now apply in_value_dict.
Qed.

(* each layer receives its registers in batch order, every occurrence with the value given by f *)
Lemma layer_receives lay (P : list (Z * reg)) L (f : reg -> Z) :
  let rl := regs_of lay L (map snd P) in
  combine rl (map f rl) = map (fun p => (snd p, f (snd p))) (filter (fun p => Nat.eqb (layer_of lay (snd p)) L) P).
Proof.
  cbv zeta. unfold regs_of. induction P as [|p P IH]; cbn; [reflexivity|].
  destruct (Nat.eqb (layer_of lay (snd p)) L); cbn; now rewrite IH.
Qed.

Lemma zs_eqb_refl l : zs_eqb l l = true.
Proof. apply list_eqb_refl, Z.eqb_refl. Qed.

Lemma model_satisfies_monitor i : holds_b i (run i) = true.
Proof.
  unfold holds_b, run. destruct i as [lay os]. cbn [fst snd].
  destruct (run_refines lay os [] [] (fun r => eq_refl)) as [Ho Hm].
  destruct (comp_run lay [] os) as [[outs log] mf]. destruct (spec_run [] os) as [souts smf].
  cbn in Ho, Hm. subst. rewrite (list_eqb_refl _ zs_eqb_refl). cbn [andb]. unfold dump.
  rewrite (map_ext _ _ Hm). apply zs_eqb_refl.
Qed.
