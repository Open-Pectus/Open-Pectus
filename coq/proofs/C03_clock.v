(* C03: the threshold decision of _is_awaiting_threshold. *)
From Coq Require Import ZArith List Bool Arith Lia.
From OP Require Import lib.Obs model.Interp model.InterpRun model.C02 model.C03.
Open Scope Z_scope.

Lemma awaiting_spec k :
  awaiting_threshold k = true <->
  k_completed k = false /\ k_has_thr k = true /\ k_forced k = false /\ scope_clock k < 10 * k_thr k * factor (k_base k).
Proof.
  unfold awaiting_threshold. rewrite !andb_true_iff, !negb_true_iff, Z.ltb_lt. tauto.
Qed.

Lemma awaiting_ignores_interrupt k b :
  awaiting_threshold {| k_completed := k_completed k; k_has_thr := k_has_thr k; k_forced := k_forced k; k_in_interrupt := b;
                        k_block := k_block k; k_base := k_base k; k_thr := k_thr k; k_scope_time := k_scope_time k;
                        k_block_time := k_block_time k |} = awaiting_threshold k.
Proof. reflexivity. Qed.

Lemma reached_not_awaiting k : 10 * k_thr k * factor (k_base k) <= scope_clock k -> awaiting_threshold k = false.
Proof. intros H. apply not_true_iff_false. rewrite awaiting_spec. lia. Qed.

Lemma monitor_agrees k : holds_b (IClock k) (run (IClock k)) = true.
Proof. cbn [holds_b run]. unfold awaiting_threshold, scope_clock. apply eqb_reflx. Qed.
