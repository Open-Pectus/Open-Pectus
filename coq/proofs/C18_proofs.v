(* Proofs for C18: the instruction-line recogniser recovers exactly the parts a line was rendered from,
   and the tag-operator-value parser recovers tag, operator, value and unit from 'tag op number [unit]'
   for any operator table in which no operator occurs inside a later one. *)
From Coq Require Import ZArith List Bool Lia.
From OP Require Import lib.Obs lib.ListFacts gen.Grammar model.C18.
Import ListNotations.
Open Scope Z_scope.

Lemma span_pre p (a x : str) : forallb p a = true -> span p (a ++ x) = (a ++ fst (span p x), snd (span p x)).
Proof.
  induction a as [|c a IH]; intros H; cbn [app]; [now destruct (span p x)|].
  cbn [forallb] in H. apply andb_true_iff in H as [Hc Ha]. cbn [span]. now rewrite Hc, IH.
Qed.

Lemma span_app p (a b : str) :
  forallb p a = true -> match b with [] => True | c :: _ => p c = false end ->
  span p (a ++ b) = (a, b).
Proof.
  intros Ha Hb. rewrite span_pre by assumption. destruct b as [|c b]; cbn [span]; [|rewrite Hb]; now rewrite app_nil_r.
Qed.

Lemma span_all p (a : str) : forallb p a = true -> span p a = (a, []).
Proof. intros H. rewrite <- (app_nil_r a) at 1. now apply span_app. Qed.

Lemma span_split p (s : str) : s = fst (span p s) ++ snd (span p s) /\ forallb p (fst (span p s)) = true.
Proof.
  induction s as [|c s [IH1 IH2]]; cbn [span]; [now split|].
  destruct (p c) eqn:E; [|now split].
  destruct (span p s) as [a b]. cbn [fst snd] in *. split; [now rewrite IH1 at 1|]. cbn [forallb]. now rewrite E.
Qed.

Lemma class_neq (p : Z -> bool) c x : p x = false -> p c = true -> (c =? x) = false.
Proof. intros Hx Hc. apply Z.eqb_neq. intros ->. congruence. Qed.

Lemma space_not_in c x : is_space x = false -> is_space c = true -> (x =? c) = false.
Proof. intros Hx Hc. rewrite Z.eqb_sym. now apply (class_neq is_space). Qed.

Lemma class_no_colon_hash (p : Z -> bool) (s : str) :
  p colon = false -> p hash = false -> forallb p s = true -> forallb not_colon_hash s = true.
Proof.
  intros Hc Hh. rewrite !forallb_forall. intros H c Hin. unfold not_colon_hash. now rewrite !(class_neq p c) by auto.
Qed.

Definition ranges_disjoint (r1 r2 : list (Z * Z)) : bool :=
  forallb (fun a => forallb (fun b => (snd a <? fst b) || (snd b <? fst a)) r2) r1.

Lemma ranges_disjoint_sound r1 r2 c :
  ranges_disjoint r1 r2 = true -> in_ranges r1 c = true -> in_ranges r2 c = false.
Proof.
  unfold ranges_disjoint, in_ranges. intros Hd H1.
  apply existsb_exists in H1 as [a [Ha Hin]].
  apply not_true_is_false. intros H2. apply existsb_exists in H2 as [b [Hb Hinb]].
  rewrite forallb_forall in Hd. specialize (Hd a Ha). rewrite forallb_forall in Hd. specialize (Hd b Hb).
  lia.
Qed.

Lemma digit_not_space c : is_udigit c = true -> is_space c = false.
Proof. apply ranges_disjoint_sound. vm_compute. reflexivity. Qed.
Lemma name_start_not_space c : is_name_start c = true -> is_space c = false.
Proof. intros H. apply (ranges_disjoint_sound [(48, 122)]); [reflexivity|]. unfold is_name_start in H. cbn. lia. Qed.

Definition nonempty (s : str) : Prop := s <> [].
Definition wf_digits (d : str) : Prop := d <> [] /\ forallb is_udigit d = true.
Definition thr_text (t : str * option str) : str :=
  match t with (d1, None) => d1 | (d1, Some d2) => d1 ++ dot :: d2 end.
Definition wf_thr (t : str * option str) : Prop :=
  wf_digits (fst t) /\ match snd t with None => True | Some d2 => wf_digits d2 end.
Definition starts_unspaced (c : str) : Prop := match c with [] => True | x :: _ => is_space x = false end.

Record wf_line (thr : option (str * option str)) (name : str) (arg comment : option str) : Prop := {
  wf_t : match thr with Some t => wf_thr t | None => True end;
  wf_n0 : match name with [] => False | c :: _ => is_name_start c = true /\ (thr = None -> is_udigit c = false) end;
  wf_n : forallb not_colon_hash name = true;
  wf_a : match arg with Some a => a <> [] /\ forallb not_hash a = true | None => True end;
  wf_c : match comment with Some c => starts_unspaced c | None => True end }.

Definition render (i : nat) (thr : option (str * option str)) (name : str) (arg comment : option str) : str :=
  render_line i (option_map thr_text thr) name arg comment.

Lemma lstrip_app w s : forallb is_space w = true -> starts_unspaced s -> lstrip (w ++ s) = s.
Proof. intros Hw Hs. unfold lstrip. now rewrite span_app. Qed.

Lemma lstrip_unspaced c : starts_unspaced c -> lstrip c = c.
Proof. exact (lstrip_app [] c eq_refl). Qed.

Lemma rstrip_decomp (s : str) : exists ws, s = rstrip s ++ ws /\ forallb is_space ws = true.
Proof.
  unfold rstrip, lstrip. destruct (span_split is_space (rev s)) as [H1 H2].
  exists (rev (fst (span is_space (rev s)))). split; [|now rewrite forallb_rev].
  rewrite <- rev_app_distr, <- H1. now rewrite rev_involutive.
Qed.

Definition thr_split (body : str) : option str * str :=
  match threshold_at body with Some (t, r) => (Some t, r) | None => (None, body) end.
Definition arg_of (r1 : str) : option str * str :=
  match r1 with
  | a :: b :: r =>
      if (a =? colon) && (b =? space) then
        let '(ar, r') := span not_hash r in
        match ar with [] => (None, r1) | _ => (Some ar, r') end
      else (None, r1)
  | _ => (None, r1) end.
Definition comment_after (r2 : str) : option str :=
  match lstrip r2 with h :: r4 => if h =? hash then Some (lstrip r4) else None | [] => None end.
Definition inst_tail (body1 : str) : str * option str * option str :=
  let '(name, r1) := span not_colon_hash body1 in
  let '(arg, r2) := arg_of r1 in (name, arg, comment_after r2).
Definition colon_first (s : str) : bool := existsb (Z.eqb colon) (fst (span not_hash s)).
Definition has_arg (line : str) : bool := colon_first (strip line).

Lemma threshold_at_digit body t r :
  threshold_at body = Some (t, r) -> match body with [] => False | c :: _ => is_udigit c = true end.
Proof. destruct body as [|c body]; [discriminate|]. unfold threshold_at. cbn [span]. now destruct (is_udigit c). Qed.

(* a body starts with a digit of its threshold or with the first character of the name *)
Lemma body_start body thr body1 :
  thr_split body = (thr, body1) -> match body1 with [] => False | n :: _ => is_name_start n = true end ->
  match body with [] => False | c :: _ => is_space c = false /\ (c =? hash) = false end.
Proof.
  unfold thr_split. intros Ht Hn. destruct (threshold_at body) as [[t r]|] eqn:E.
  - apply threshold_at_digit in E. destruct body; [easy|]. split; [now apply digit_not_space|now apply (class_neq is_udigit)].
  - injection Ht as _ <-. destruct body; [easy|]. split; [now apply name_start_not_space|now apply (class_neq is_name_start)].
Qed.

Lemma split_line_inst ind body thr body1 :
  forallb is_space ind = true -> thr_split body = (thr, body1) ->
  match body1 with [] => False | n :: _ => is_name_start n = true end ->
  split_line (ind ++ body) =
  let '(name, arg, comment) := inst_tail body1 in PInst (length ind) thr name arg (has_arg (ind ++ body)) comment.
Proof.
  intros Hi Ht Hn. pose proof (body_start _ _ _ Ht Hn) as Hb. destruct body as [|c0 body']; [contradiction|]. destruct Hb as [Hs Hh].
  unfold split_line, inst_tail. rewrite span_app by assumption. cbv beta iota. rewrite Hh.
  unfold thr_split in Ht. rewrite Ht. destruct body1 as [|n0 rest]; [contradiction|]. cbv beta iota. rewrite Hn.
  destruct (span not_colon_hash (n0 :: rest)) as [name r1]. destruct (arg_of r1) as [arg r2] eqn:E.
  unfold arg_of in E. now rewrite E.
Qed.

Lemma colon_first_cons c s : colon_first (c :: s) = if c =? hash then false else (c =? colon) || colon_first s.
Proof.
  unfold colon_first, not_hash. cbn [span]. destruct (c =? hash); [reflexivity|].
  cbn [negb]. destruct (span _ s). cbn [fst existsb]. now rewrite Z.eqb_sym.
Qed.

Lemma colon_first_skip q s : forallb not_colon_hash q = true -> colon_first (q ++ s) = colon_first s.
Proof.
  intros H. induction q as [|c q IH]; [reflexivity|]. cbn [forallb app] in *. apply andb_true_iff in H as [Hc Hq].
  apply negb_true_iff, orb_false_iff in Hc as [Hc Hh]. now rewrite colon_first_cons, Hc, Hh, IH.
Qed.

Lemma colon_first_trail s w : forallb not_colon_hash w = true -> colon_first (s ++ w) = colon_first s.
Proof.
  intros H. induction s as [|c s IH]; cbn [app].
  - rewrite <- (app_nil_r w). now apply colon_first_skip.
  - now rewrite !colon_first_cons, IH.
Qed.

(* stripping removes blanks only, and neither the colon nor the hash is one *)
Lemma has_arg_strip s : has_arg s = colon_first s.
Proof.
  unfold has_arg, strip. destruct (span_split is_space s) as [E1 H1], (rstrip_decomp (lstrip s)) as [w [E2 H2]].
  rewrite E1 at 2. rewrite colon_first_skip by now apply (class_no_colon_hash is_space).
  fold (lstrip s). rewrite E2 at 2. now rewrite colon_first_trail by now apply (class_no_colon_hash is_space).
Qed.

Definition thr_prefix (thr : option (str * option str)) : str :=
  match thr with Some t => thr_text t ++ [space] | None => [] end.
Definition tail_of (arg comment : option str) : str :=
  match arg with Some a => colon :: space :: a | None => [] end
  ++ match comment with Some c => space :: hash :: space :: c | None => [] end.

Lemma render_parts i thr name arg comment :
  render i thr name arg comment = repeat space i ++ thr_prefix thr ++ name ++ tail_of arg comment.
Proof. now destruct thr. Qed.

Lemma threshold_at_some t n0 rest : wf_thr t -> is_name_start n0 = true ->
  threshold_at ((thr_text t ++ [space]) ++ n0 :: rest) = Some (thr_text t, n0 :: rest).
Proof.
  destruct t as [d1 od2]. intros [[Hne1 Hd1] H2] Hn0. cbn [fst snd thr_text] in *.
  unfold threshold_at. destruct od2 as [d2|]; rewrite <- !app_assoc; cbn [app];
    rewrite (span_app is_udigit d1 _ Hd1) by reflexivity; (destruct d1 as [|x d1]; [congruence|]).
  - destruct H2 as [Hne2 Hd2]. rewrite Z.eqb_refl, (span_app is_udigit d2 _ Hd2) by reflexivity.
    destruct d2 as [|y d2]; [congruence|]. now rewrite Hn0.
  - now rewrite Hn0.
Qed.

Lemma threshold_at_none c rest : is_udigit c = false -> threshold_at (c :: rest) = None.
Proof. intros H. unfold threshold_at. cbn [span]. now rewrite H. Qed.

Lemma thr_split_render thr n0 rest :
  match thr with Some t => wf_thr t | None => True end -> (thr = None -> is_udigit n0 = false) -> is_name_start n0 = true ->
  thr_split (thr_prefix thr ++ n0 :: rest) = (option_map thr_text thr, n0 :: rest).
Proof.
  intros Ht Hd Hn. unfold thr_split. destruct thr as [t|]; cbn [thr_prefix option_map app].
  - now rewrite threshold_at_some.
  - now rewrite threshold_at_none by auto.
Qed.

Lemma thr_prefix_nch thr : match thr with Some t => wf_thr t | None => True end -> forallb not_colon_hash (thr_prefix thr) = true.
Proof.
  destruct thr as [[d1 od2]|]; [|reflexivity]. intros [[_ H1] H2]. cbn [thr_prefix thr_text fst snd] in *.
  destruct od2 as [d2|]; rewrite !forallb_app, ?(class_no_colon_hash is_udigit d1) by auto; [|reflexivity].
  cbn [forallb]. now rewrite (class_no_colon_hash is_udigit d2) by (auto; apply H2).
Qed.

Lemma colon_first_tail arg comment : colon_first (tail_of arg comment) = match arg with Some _ => true | None => false end.
Proof.
  unfold tail_of. destruct arg as [a|]; [|now destruct comment]. cbn [app]. now rewrite colon_first_cons.
Qed.

Lemma arg_of_some a r : a <> [] -> forallb not_hash a = true -> match r with [] => True | c :: _ => not_hash c = false end ->
  arg_of (colon :: space :: a ++ r) = (Some a, r).
Proof. intros Hne Ha Hr. unfold arg_of. rewrite !Z.eqb_refl, span_app by assumption. now destruct a. Qed.

Lemma comment_after_hash w w' c : forallb is_space w = true -> forallb is_space w' = true -> starts_unspaced c ->
  comment_after (w ++ hash :: w' ++ c) = Some c.
Proof.
  intros Hw Hw' Hc. unfold comment_after. rewrite (lstrip_app w) by (assumption || reflexivity).
  now rewrite Z.eqb_refl, lstrip_app.
Qed.

(* the blank before a comment goes to whichever of name and argument comes last *)
Lemma inst_tail_render name arg comment :
  forallb not_colon_hash name = true ->
  match arg with Some a => a <> [] /\ forallb not_hash a = true | None => True end ->
  match comment with Some c => starts_unspaced c | None => True end ->
  inst_tail (name ++ tail_of arg comment) =
  (match arg, comment with None, Some _ => name ++ [space] | _, _ => name end,
   match arg, comment with Some a, Some _ => Some (a ++ [space]) | _, _ => arg end, comment).
Proof.
  intros Hn Ha Hc. unfold inst_tail, tail_of. destruct arg as [a|], comment as [c|]; cbn [app].
  - destruct Ha as [Hne Hah]. rewrite (span_app _ name) by (assumption || reflexivity).
    rewrite (app_assoc a [space] _ : a ++ space :: _ = _), arg_of_some; [|now destruct a|rewrite forallb_app, Hah; reflexivity|reflexivity].
    now apply f_equal, (comment_after_hash [] [space]).
  - destruct Ha as [Hne Hah]. rewrite (span_app _ name) by (assumption || reflexivity).
    now rewrite arg_of_some.
  - rewrite (app_assoc name [space] _ : name ++ space :: _ = _), span_app by (rewrite ?forallb_app, ?Hn; reflexivity).
    now apply (f_equal (pair _)), (comment_after_hash [] [space]).
  - now rewrite app_nil_r, span_all.
Qed.

Theorem split_line_roundtrip i thr name arg comment :
  wf_line thr name arg comment ->
  split_line (render i thr name arg comment) = expected_line i (option_map thr_text thr) name arg comment.
Proof.
  intros [Ht Hn0 Hn Ha Hc]. destruct name as [|n0 name']; [contradiction|]. destruct Hn0 as [Hn0 Hd].
  rewrite render_parts, (split_line_inst _ _ (option_map thr_text thr) ((n0 :: name') ++ tail_of arg comment)).
  - rewrite inst_tail_render, has_arg_strip, 3 colon_first_skip, colon_first_tail, repeat_length
      by auto using forallb_repeat, thr_prefix_nch.
    reflexivity.
  - now apply forallb_repeat.
  - now apply thr_split_render.
  - exact Hn0.
Qed.

(* operators are made of < > = !, which occur in neither tags, numbers nor units *)
Definition op_ranges : list (Z * Z) := [(33, 33); (60, 62)].
Definition is_op_char := in_ranges op_ranges.
Definition op_free (s : str) : Prop := forallb (fun c => negb (is_op_char c)) s = true.
Definition op_word (o : str) : bool := match o with [] => false | _ => forallb is_op_char o end.
(* makes the first operator found in a rendered text the rendered one *)
Fixpoint no_shadow (ops : list str) : bool :=
  match ops with [] => true | o :: r => forallb (fun op => negb (contains o op)) r && no_shadow r end.
Definition ops_ok (ops : list str) : bool := forallb op_word ops && no_shadow ops.

Lemma class_op_free (p : Z -> bool) s : (forall c, p c = true -> is_op_char c = false) -> forallb p s = true -> op_free s.
Proof. unfold op_free. rewrite !forallb_forall. intros Hp H c Hc. now rewrite Hp by auto. Qed.

Lemma op_free_app a b : op_free a -> op_free b -> op_free (a ++ b).
Proof. unfold op_free. intros Ha Hb. now rewrite forallb_app, Ha. Qed.

Lemma is_prefix_op_free o c s : op_word o = true -> negb (is_op_char c) = true -> is_prefix o (c :: s) = false.
Proof.
  destruct o as [|x o]; [easy|]. cbn. intros Ho Hc. apply andb_true_iff in Ho as [Hx _].
  destruct (x =? c) eqn:E; [|reflexivity]. apply Z.eqb_eq in E as <-. now rewrite Hx in Hc.
Qed.

Lemma is_prefix_app o b : is_prefix o (o ++ b) = true.
Proof. induction o; cbn; [reflexivity|]. now rewrite Z.eqb_refl. Qed.

Lemma is_prefix_trail o m b : forallb is_op_char o = true -> op_free b -> is_prefix o (m ++ b) = is_prefix o m.
Proof.
  revert m. induction o as [|x o IH]; intros m Ho Hb; [now destruct m, b|].
  destruct m as [|y m]; cbn [app]; [|cbn in *; apply andb_true_iff in Ho as [_ Ho]; now rewrite IH].
  destruct b as [|c b]; [reflexivity|]. apply andb_true_iff in Hb as [Hc _]. now apply is_prefix_op_free.
Qed.

Lemma contains_skip o a s : op_word o = true -> op_free a -> contains o (a ++ s) = contains o s.
Proof.
  intros Ho. induction a as [|c a IH]; intros Ha; [reflexivity|]. apply andb_true_iff in Ha as [Hc Ha].
  cbn [app contains]. now rewrite is_prefix_op_free, IH.
Qed.

Lemma contains_between o a m b : op_word o = true -> op_free a -> op_free b -> contains o (a ++ m ++ b) = contains o m.
Proof.
  intros Ho Ha Hb. rewrite contains_skip by assumption. clear a Ha.
  assert (Ho' : forallb is_op_char o = true) by now destruct o.
  induction m as [|c m IH].
  - cbn [app]. rewrite <- (app_nil_r b). now apply contains_skip.
  - change ((c :: m) ++ b) with (c :: m ++ b) at 1. cbn [contains]. rewrite IH. f_equal. now apply (is_prefix_trail o (c :: m)).
Qed.

Lemma find_op ops a op b : ops_ok ops = true -> In op ops -> op_free a -> op_free b ->
  op_word op = true /\ find (fun o => contains o (a ++ op ++ b)) ops = Some op.
Proof.
  intros H Hin Ha Hb. apply andb_true_iff in H as [Hs H]. split; [now apply (proj1 (forallb_forall _ _) Hs)|].
  induction ops as [|o ops IH]; [easy|]. cbn in *. apply andb_true_iff in Hs as [Ho Hs], H as [Hn H].
  rewrite contains_between by assumption. destruct Hin as [->|Hin].
  - rewrite <- (app_nil_r op) at 2. destruct (op ++ []) eqn:E; [now destruct op|]. cbn [contains]. now rewrite <- E, is_prefix_app.
  - rewrite forallb_forall in Hn. rewrite (proj1 (negb_true_iff _) (Hn op Hin)). auto.
Qed.

Lemma split_op_free f op b cur : op_word op = true -> op_free b -> split_on f op b cur = [rev cur ++ b].
Proof.
  intros Ho. revert b cur. induction f as [|f IH]; intros [|c b] cur Hb; cbn [split_on]; try reflexivity; [now rewrite app_nil_r|].
  apply andb_true_iff in Hb as [Hc Hb]. rewrite is_prefix_op_free, IH by assumption. cbn [rev]. now rewrite <- app_assoc.
Qed.

Lemma split_at f op a b cur : op_word op = true -> op_free a -> op_free b -> (length a < f)%nat ->
  split_on f op (a ++ op ++ b) cur = [rev cur ++ a; b].
Proof.
  intros Ho Ha Hb. revert f cur. induction a as [|c a IH]; intros [|f] cur Hf; try (cbn in Hf; lia); cbn [app split_on].
  - destruct (op ++ b) eqn:E; [now destruct op|]. rewrite <- E, is_prefix_app.
    rewrite skipn_app, skipn_all, Nat.sub_diag, app_nil_r. now rewrite split_op_free.
  - apply andb_true_iff in Ha as [Hc Ha]. rewrite is_prefix_op_free, IH by (auto; cbn in Hf; lia). cbn [rev]. now rewrite <- app_assoc.
Qed.

Definition operand (s : str) : Prop := s <> [] /\ op_free s /\ starts_unspaced s /\ starts_unspaced (rev s).

Lemma strip_operand w1 s w2 : forallb is_space w1 = true -> forallb is_space w2 = true -> operand s ->
  strip (w1 ++ s ++ w2) = s.
Proof.
  intros H1 H2 (Hne & _ & Hs & Hr). unfold strip, rstrip. rewrite lstrip_app by (auto; now destruct s).
  rewrite rev_app_distr, lstrip_app, rev_involutive; auto. now rewrite forallb_rev.
Qed.

(* [+-]? (digits ( . digits* )? | . digits) ([eE] [+-]? digits)? *)
Definition is_sign (c : Z) : bool := (c =? 43) || (c =? 45).
Definition is_exp (c : Z) : bool := (c =? 101) || (c =? 69).
Inductive sign : str -> Prop := S_none : sign [] | S_some c : is_sign c = true -> sign [c].
Inductive mant : str -> Prop :=
| M_int c d : forallb is_udigit (c :: d) = true -> mant (c :: d)
| M_frac c d1 d2 : forallb is_udigit (c :: d1) = true -> forallb is_udigit d2 = true -> mant ((c :: d1) ++ dot :: d2)
| M_dot c d : forallb is_udigit (c :: d) = true -> mant (dot :: c :: d).
Inductive expo : str -> Prop :=
| E_none : expo []
| E_some e sg c d : is_exp e = true -> sign sg -> forallb is_udigit (c :: d) = true -> expo (e :: sg ++ c :: d).
Inductive float_lit : str -> Prop := Float sg m ex : sign sg -> mant m -> expo ex -> float_lit (sg ++ m ++ ex).

Definition float_ranges : list (Z * Z) := digit_ranges ++ [(43, 43); (45, 46); (69, 69); (101, 101)].
Definition float_char := in_ranges float_ranges.

Lemma float_char_digit c : is_udigit c = true -> float_char c = true.
Proof. intros H. unfold float_char, in_ranges, float_ranges. rewrite existsb_app. unfold is_udigit, in_ranges in H. now rewrite H. Qed.
Lemma float_char_other c : is_sign c || is_exp c = true -> float_char c = true.
Proof.
  intros H. unfold float_char, in_ranges, float_ranges. rewrite existsb_app. cbn [existsb fst snd].
  unfold is_sign, is_exp in H. apply orb_true_iff. right. lia.
Qed.
Lemma float_not_space c : float_char c = true -> is_space c = false.
Proof. apply ranges_disjoint_sound. vm_compute. reflexivity. Qed.
Lemma float_not_op c : float_char c = true -> is_op_char c = false.
Proof. apply ranges_disjoint_sound. vm_compute. reflexivity. Qed.
Lemma unit_not_space c : is_unit_char c = true -> is_space c = false.
Proof. apply ranges_disjoint_sound. vm_compute. reflexivity. Qed.
Lemma unit_not_op c : is_unit_char c = true -> is_op_char c = false.
Proof. apply ranges_disjoint_sound. vm_compute. reflexivity. Qed.

Lemma float_unspaced s : forallb float_char s = true -> starts_unspaced s.
Proof. destruct s; [easy|]. cbn [forallb]. intros H. apply andb_true_iff in H as [H _]. now apply float_not_space. Qed.

(* the sign test that float_cands and with_exponent both spell out *)
Definition sign_split (s : str) : str * str :=
  match s with c :: r => if (c =? 43) || (c =? 45) then ([c], r) else ([], s) | [] => ([], s) end.

Definition cut (s f r : str) : Prop := f ++ r = s /\ forallb float_char f = true.

Lemma cut_pre m s f r : forallb float_char m = true -> cut s f r -> cut (m ++ s) (m ++ f) r.
Proof. intros Hm [<- H]. split; [now rewrite app_assoc|now rewrite forallb_app, Hm]. Qed.

Lemma sign_split_cut s : cut s (fst (sign_split s)) (snd (sign_split s)).
Proof.
  destruct s as [|c r]; [easy|]. unfold sign_split. destruct ((c =? 43) || (c =? 45)) eqn:E; [|easy].
  split; [reflexivity|]. cbn [fst forallb]. now rewrite float_char_other by (unfold is_sign; now rewrite E).
Qed.

Lemma sign_split_app sg s : sign sg -> sign_split s = ([], s) -> sign_split (sg ++ s) = (sg, s).
Proof. intros [|c Hc] Hs; [exact Hs|]. cbn. unfold is_sign in Hc. now rewrite Hc. Qed.

Lemma sign_split_digits c d s : forallb is_udigit (c :: d) = true -> sign_split ((c :: d) ++ s) = ([], (c :: d) ++ s).
Proof. intros H. apply andb_true_iff in H as [H _]. unfold sign_split, app. now rewrite !(class_neq is_udigit c) by (assumption || reflexivity). Qed.

Lemma prefixes_cut s f r : In (f, r) (prefixes_desc s) -> cut s f r.
Proof.
  revert f r. induction s as [|c s IH]; intros f r H; [easy|]. cbn [prefixes_desc] in H. destruct (is_udigit c) eqn:D; [|easy].
  assert (Hc : forallb float_char [c] = true) by (cbn [forallb]; now rewrite float_char_digit).
  apply in_app_or in H as [H|[[= <- <-]|[]]]; [|now split].
  apply in_map_iff in H as [[f' r'] [[= <- <-] H]]. apply (cut_pre [c]); auto.
Qed.

Lemma prefixes_complete c d r : forallb is_udigit (c :: d) = true -> In (c :: d, r) (prefixes_desc ((c :: d) ++ r)).
Proof.
  revert c. induction d as [|c' d IH]; intros c H; cbn [forallb] in H; apply andb_true_iff in H as [Hc H];
    cbn [app prefixes_desc]; rewrite Hc; [auto with datatypes|].
  apply in_or_app. left. apply in_map_iff. exists (c' :: d, r). split; [reflexivity|now apply IH].
Qed.

Lemma exponent_cut m t f r : forallb float_char m = true -> In (f, r) (with_exponent m t) -> cut (m ++ t) f r.
Proof.
  intros Hm H. apply in_app_or in H as [H|[[= <- <-]|[]]]; [|now split].
  destruct t as [|e r1]; [easy|]. destruct ((e =? 101) || (e =? 69)) eqn:He; [|easy].
  change (match r1 with [] => _ | _ => _ end) with (sign_split r1) in H.
  pose proof (sign_split_cut r1) as Hs. destruct (sign_split r1) as [sg r2], Hs as [<- Hs].
  apply in_map_iff in H as [[f' r'] [[= <- <-] H]]. apply prefixes_cut in H.
  apply cut_pre, (cut_pre [e]), cut_pre; auto. cbn [forallb]. now rewrite float_char_other by (unfold is_exp; now rewrite He, orb_true_r).
Qed.

Lemma cands_cut s f r : In (f, r) (float_cands s) -> cut s f r.
Proof.
  unfold float_cands. change (match s with [] => _ | _ => _ end) with (sign_split s).
  pose proof (sign_split_cut s) as Hs. destruct (sign_split s) as [sg s1], Hs as [<- Hs]. cbn [fst snd] in *.
  intros H. apply in_flat_map in H as [[m t] [Hm H]].
  assert (Hc : cut s1 m t).
  { apply in_app_or in Hm as [Hm|Hm].
    - apply in_flat_map in Hm as [[d t1] [Hd Hm]]. apply prefixes_cut in Hd. apply in_app_or in Hm as [Hm|[[= <- <-]|[]]]; [|exact Hd].
      destruct t1 as [|c r1]; [easy|]. destruct (c =? dot) eqn:Ec; [|easy]. apply Z.eqb_eq in Ec as ->.
      apply in_map_iff in Hm as [[d2 t2] [[= <- <-] Hm]]. destruct Hd as [<- Hd]. apply cut_pre, (cut_pre [dot]); auto.
      apply in_app_or in Hm as [Hm|[[= <- <-]|[]]]; [now apply prefixes_cut|now split].
    - destruct s1 as [|c r1]; [easy|]. destruct (c =? dot) eqn:Ec; [|easy]. apply Z.eqb_eq in Ec as ->.
      apply in_map_iff in Hm as [[d2 t2] [[= <- <-] Hm]]. apply (cut_pre [dot]); auto. now apply prefixes_cut. }
  destruct Hc as [<- Hc]. rewrite app_assoc. apply exponent_cut; [now rewrite forallb_app, Hs|exact H].
Qed.

Lemma cands_complete v r : float_lit v -> In (v, r) (float_cands (v ++ r)).
Proof.
  intros [sg m ex Hs Hm He]. unfold float_cands. rewrite <- !app_assoc.
  change (match sg ++ _ with [] => _ | _ => _ end) with (sign_split (sg ++ m ++ ex ++ r)).
  rewrite sign_split_app; [|exact Hs|destruct Hm; rewrite <- ?app_assoc; first [now apply sign_split_digits|reflexivity]].
  apply in_flat_map. exists (m, ex ++ r). split.
  - destruct Hm as [c d H|c d1 d2 H1 H2|c d H]; rewrite <- ?app_assoc; apply in_or_app.
    + left. apply in_flat_map. exists (c :: d, ex ++ r). split; [now apply prefixes_complete|auto with datatypes].
    + left. apply in_flat_map. exists (c :: d1, dot :: d2 ++ ex ++ r). split; [now apply prefixes_complete|].
      apply in_or_app. left. apply in_map_iff. exists (d2, ex ++ r). split; [reflexivity|].
      apply in_or_app. destruct d2; [right; now left|left; now apply prefixes_complete].
    + right. apply in_map_iff. exists (c :: d, ex ++ r). split; [reflexivity|now apply prefixes_complete].
  - cbn [fst snd]. unfold with_exponent. apply in_or_app. destruct He as [|e sg' c d He Hs' H].
    + right. left. now rewrite !app_nil_r.
    + left. cbn [app]. unfold is_exp in He. rewrite He, <- (app_assoc sg').
      change (match sg' ++ _ with [] => _ | _ => _ end) with (sign_split (sg' ++ (c :: d) ++ r)).
      rewrite sign_split_app; [|exact Hs'|now apply sign_split_digits].
      apply in_map_iff. exists (c :: d, r). split; [now rewrite <- !app_assoc|now apply prefixes_complete].
Qed.

(* a candidate for v ++ t, where t cannot continue a number, ends inside v *)
Lemma cand_rest v t f r :
  forallb float_char v = true -> match t with [] => True | c :: _ => float_char c = false end ->
  In (f, r) (float_cands (v ++ t)) -> exists l, v = f ++ l /\ r = l ++ t /\ starts_unspaced l.
Proof.
  intros Hv Ht H. apply cands_cut in H as [E Hf]. apply app_eq_app in E as [l [[-> E]|[-> ->]]].
  - destruct l as [|c l]; [exists []; rewrite !app_nil_r; now subst|]. destruct t as [|c' t]; [easy|]. injection E as <- _.
    rewrite !forallb_app in Hf. cbn [forallb] in Hf. rewrite Ht in Hf. now rewrite andb_false_r in Hf.
  - exists l. rewrite forallb_app in Hv. apply andb_true_iff in Hv as [_ Hv]. auto using float_unspaced.
Qed.

Definition unit_text (u : option str) : str := match u with Some x => space :: x | None => [] end.
Definition unit_ok (u : option str) : Prop :=
  match u with Some x => x <> [] /\ forallb is_unit_char x = true | None => True end.

Lemma parse_rhs_float v u : float_lit v -> unit_ok u -> parse_rhs (v ++ unit_text u) = (Some v, u).
Proof.
  (* (v, unit_text u) is a candidate, and the only one either test of parse_rhs can accept: any other leaves
     a remainder that starts with a number character of v and still holds the blank *)
  intros Hv Hu. pose proof (cands_complete v (unit_text u) Hv) as Hin. destruct (cands_cut _ _ _ Hin) as [_ Hfc].
  assert (Ht : match unit_text u with [] => True | c :: _ => float_char c = false end) by now destruct u.
  pose proof (fun f r => cand_rest v _ f r Hfc Ht) as Hr. clear Ht.
  unfold parse_rhs, all_p. destruct u as [x|]; cbn [unit_text] in *.
  - destruct Hu as [Hne Hx]. destruct x as [|c x]; [easy|]. cbn [forallb] in Hx. apply andb_true_iff in Hx as [Hc Hx].
    destruct (find _ _) as [[f r]|] eqn:E.
    { apply find_some in E as [H E]. apply Hr in H as [l [_ [-> _]]]. cbn [snd] in E.
      rewrite forallb_app in E. cbn [forallb] in E. rewrite (unit_not_space c Hc) in E. now rewrite !andb_false_r in E. }
    assert (Hl : lstrip (space :: c :: x) = c :: x) by (apply (lstrip_app [space]); [reflexivity|now apply unit_not_space]).
    rewrite (find_unique _ _ (v, space :: c :: x)); [now rewrite Hl|exact Hin|cbn [snd forallb]; rewrite Hl; cbn [forallb]; now rewrite Hc|].
    intros [f r] H. apply Hr in H as [l [-> [-> Hs]]]. cbn [snd]. destruct l as [|c' l]; [now rewrite app_nil_r|].
    rewrite lstrip_unspaced by exact Hs. cbn [app forallb]. rewrite forallb_app. cbn [forallb].
    change (is_unit_char space) with false. now rewrite !andb_false_r.
  - rewrite (find_unique _ _ (v, [] : str)); [reflexivity|exact Hin|reflexivity|].
    intros [f r] H. apply Hr in H as [l [-> [-> Hs]]]. cbn [snd]. destruct l as [|c l]; [now rewrite !app_nil_r|].
    cbn [app forallb]. now rewrite Hs.
Qed.

Lemma last_unspaced (p : Z -> bool) t s : (forall c, p c = true -> is_space c = false) ->
  s <> [] -> forallb p s = true -> starts_unspaced (rev (t ++ s)).
Proof.
  intros Hp Hne H. destruct (exists_last Hne) as [s' [c ->]]. rewrite app_assoc, rev_unit.
  rewrite forallb_app in H. apply andb_true_iff in H as [_ H]. apply Hp. cbn in H. now destruct (p c).
Qed.

Lemma rhs_operand v u : float_lit v -> unit_ok u -> operand (v ++ unit_text u).
Proof.
  intros Hv Hu. destruct (cands_cut _ _ _ (cands_complete v [] Hv)) as [_ Hfc].
  assert (Hne : v <> []) by (destruct Hv as [sg m ex [|] [] _]; discriminate).
  pose proof (float_unspaced v Hfc) as Hs. repeat split.
  - now destruct v.
  - apply op_free_app; [exact (class_op_free _ v float_not_op Hfc)|]. destruct u as [x|]; [|reflexivity]. apply (class_op_free _ x unit_not_op), Hu.
  - now destruct v.
  - destruct u as [x|]; cbn [unit_text].
    + change (v ++ space :: x) with (v ++ [space] ++ x). rewrite app_assoc. now apply (last_unspaced is_unit_char _ x unit_not_space); apply Hu.
    + rewrite app_nil_r. now apply (last_unspaced float_char [] v float_not_space).
Qed.

Theorem tov_roundtrip ops tag op v u :
  ops_ok ops = true -> In op ops -> operand tag -> float_lit v -> unit_ok u ->
  parse_tov ops (render_tov tag op v u) = expected_tov tag op v u.
Proof.
  intros Hops Hop Ht Hv Hu. pose proof (rhs_operand v u Hv Hu) as Hr.
  unfold expected_tov. change (match u with Some x => space :: x | None => [] end) with (unit_text u).
  replace (render_tov tag op v u) with ((tag ++ [space]) ++ op ++ space :: v ++ unit_text u) by (unfold render_tov; now rewrite <- app_assoc).
  set (rest := v ++ unit_text u) in *.
  assert (Hl : strip (tag ++ [space]) = tag) by now apply (strip_operand [] tag [space]).
  assert (Hs : strip (space :: rest) = rest) by (rewrite <- (app_nil_r rest) at 1; now apply (strip_operand [space])).
  assert (Ha : op_free (tag ++ [space])) by now apply op_free_app; [apply Ht|].
  assert (Hb : op_free (space :: rest)) by (apply (op_free_app [space]), Hr; reflexivity).
  destruct (find_op ops _ op _ Hops Hop Ha Hb) as [Ho Hf].
  unfold parse_tov. rewrite Hf, split_at by (auto; rewrite !app_length; lia).
  cbn [rev app]. rewrite Hl, Hs. destruct Ht as [Ht _], Hr as [Hr _]. destruct tag; [easy|]. destruct rest eqn:E; [easy|].
  rewrite <- E. unfold rest. now rewrite parse_rhs_float.
Qed.

(* "TT01", "Run Time", "x_y", "é" *)
Definition sweep_tags : list str := [[84; 84; 48; 49]; [82; 117; 110; 32; 84; 105; 109; 101]; [120; 95; 121]; [233]].
(* "5", "1.5", "-3", "0.25", "+2", ".5", "5.", "1e3", "2E-2" *)
Definition sweep_values : list str := [[53]; [49; 46; 53]; [45; 51]; [48; 46; 50; 53]; [43; 50]; [46; 53]; [53; 46]; [49; 101; 51]; [50; 69; 45; 50]].

Lemma sweep_tags_operand tag : In tag sweep_tags -> operand tag.
Proof. intros H. repeat destruct H as [<-|H]; [..|easy]; repeat split; easy. Qed.

Lemma sweep_values_float v : In v sweep_values -> float_lit v.
Proof.
  intros H. repeat destruct H as [<-|H]; [..|easy].
  - exact (Float [] _ [] S_none (M_int 53 [] eq_refl) E_none).
  - exact (Float [] _ [] S_none (M_frac 49 [] [53] eq_refl eq_refl) E_none).
  - exact (Float [45] _ [] (S_some 45 eq_refl) (M_int 51 [] eq_refl) E_none).
  - exact (Float [] _ [] S_none (M_frac 48 [] [50; 53] eq_refl eq_refl) E_none).
  - exact (Float [43] _ [] (S_some 43 eq_refl) (M_int 50 [] eq_refl) E_none).
  - exact (Float [] _ [] S_none (M_dot 53 [] eq_refl) E_none).
  - exact (Float [] _ [] S_none (M_frac 53 [] [] eq_refl eq_refl) E_none).
  - exact (Float [] _ _ S_none (M_int 49 [] eq_refl) (E_some 101 [] 51 [] eq_refl S_none eq_refl)).
  - exact (Float [] _ _ S_none (M_int 50 [] eq_refl) (E_some 69 [45] 50 [] eq_refl (S_some 45 eq_refl) eq_refl)).
Qed.

Lemma units_in_class : forallb (forallb is_unit_char) supported_units = true.
Proof. vm_compute. reflexivity. Qed.
Lemma units_nonempty : forallb (fun x => negb (str_eqb x [])) supported_units = true.
Proof. vm_compute. reflexivity. Qed.

Lemma ostr_eqb_refl o : ostr_eqb o o = true.
Proof. apply option_eqb_refl, str_eqb_refl. Qed.

Lemma tov_panel ops tag op v u :
  ops_ok ops = true -> In tag sweep_tags -> In op ops -> In v sweep_values ->
  match u with Some x => In x supported_units | None => True end ->
  tov_eqb (parse_tov ops (render_tov tag op v u)) (expected_tov tag op v u) = true.
Proof.
  intros Hops Ht Ho Hv Hu. rewrite tov_roundtrip; auto using sweep_tags_operand, sweep_values_float.
  - unfold tov_eqb. now rewrite !str_eqb_refl, !ostr_eqb_refl.
  - destruct u as [x|]; [split|exact I].
    + intros ->. now apply (proj1 (forallb_forall _ _) units_nonempty) in Hu.
    + exact (proj1 (forallb_forall _ _) units_in_class x Hu).
Qed.

Lemma parts_eqb_refl p : parts_eqb p p = true.
Proof. destruct p; cbn; rewrite ?Nat.eqb_refl, ?str_eqb_refl, ?ostr_eqb_refl, ?eqb_reflx; reflexivity. Qed.

Lemma monitor_line i thr name arg comment : wf_line thr name arg comment ->
  holds_b (QLineWF i (option_map thr_text thr) name arg comment)
          (run (QLineWF i (option_map thr_text thr) name arg comment)) = true.
Proof.
  intros H. cbn [run holds_b]. fold (render i thr name arg comment). rewrite split_line_roundtrip by assumption.
  apply parts_eqb_refl.
Qed.
