(* Proofs about the tag reporting model: completeness of reports (C36) and time stamps (C16). *)
From Coq Require Import ZArith List Bool Arith Lia.
From OP Require Import lib.Obs lib.ListFacts model.Tags.
Import ListNotations.
Open Scope Z_scope.

Lemma upd_length {A} (l : list A) i x : length (upd l i x) = length l.
Proof. revert i; induction l as [|y l IH]; intros [|i]; cbn; auto. Qed.

Lemma nth_upd {A} (l : list A) i j x d :
  nth j (upd l i x) d = if Nat.eqb i j && Nat.ltb i (length l) then x else nth j l d.
Proof.
  revert i j; induction l as [|y l IH]; intros [|i] [|j]; cbn; rewrite ?andb_false_r; try reflexivity. apply IH.
Qed.

Lemma mem_In i l : mem i l = true <-> In i l.
Proof. apply existsb_eqb_In. Qed.

Lemma In_add i j l : In i (add j l) <-> In i l \/ i = j.
Proof.
  unfold add. destruct (mem j l) eqn:E.
  - apply mem_In in E. split; [tauto|]. intros [H| ->]; assumption.
  - rewrite in_app_iff. cbn. split; [intros [H|[->|[]]]|intros [H| ->]]; auto.
Qed.

Lemma In_dedupe i l : forall seen, In i (dedupe l seen) <-> In i l /\ ~ In i seen.
Proof.
  induction l as [|j l IH]; intros seen; cbn; [tauto|].
  destruct (mem j seen) eqn:E; cbn; rewrite IH; cbn.
  - apply mem_In in E. split; [tauto|]. intros [[->|H] N]; tauto.
  - assert (~ In j seen) by (rewrite <- mem_In; congruence). destruct (Nat.eq_dec j i) as [->|]; [split; auto|tauto].
Qed.

Lemma NoDup_dedupe l : forall seen, NoDup (dedupe l seen).
Proof.
  induction l as [|j l IH]; intros seen; cbn; [constructor|].
  destruct (mem j seen); [apply IH|]. constructor; [|apply IH].
  rewrite In_dedupe. cbn. tauto.
Qed.

Lemma In_insert i j l : In i (insert j l) <-> In i (j :: l).
Proof.
  induction l as [|k l IH]; cbn; [tauto|].
  destruct (Nat.leb j k); cbn; [tauto|]. rewrite IH. cbn. tauto.
Qed.

Lemma In_sort i l : In i (sort l) <-> In i l.
Proof. induction l as [|j l IH]; cbn; [tauto|]. rewrite In_insert. cbn. now rewrite IH. Qed.

Lemma NoDup_insert j l : NoDup l -> ~ In j l -> NoDup (insert j l).
Proof.
  induction l as [|k l IH]; intros Hn Hj; cbn; [constructor; [tauto|constructor]|].
  destruct (Nat.leb j k); [constructor; assumption|].
  inversion Hn; subst. cbn in Hj. constructor.
  - rewrite In_insert. intros [->|H]; tauto.
  - apply IH; [assumption|tauto].
Qed.

Lemma NoDup_sort l : NoDup l -> NoDup (sort l).
Proof.
  induction l as [|j l IH]; intros H; cbn; [constructor|]. inversion H; subst.
  apply NoDup_insert; [auto|]. now rewrite In_sort.
Qed.

Definition n_tags (s : st) := length (tags s).

Lemma get_set s i j t : get (set_tag s i t) j = if Nat.eqb i j && Nat.ltb i (n_tags s) then t else get s j.
Proof. apply nth_upd. Qed.

Lemma get_notify s i j : get (notify s i) j = get s j.
Proof. reflexivity. Qed.

Definition disciplined (o : op) : bool :=
  match o with
  | ORawVal _ _ | ORawSim _ _ | ORawFlag _ _ => false
  | OSim _ v _ => negb (v =? 0)            (* a simulated value is never None *)
  | _ => true
  end.

Definition dirty (s : st) (i : nat) : Prop := In i (changes s) \/ In i (queue s).

Record Inv (s : st) : Prop := {
  inv_len : length (rep s) = length (tags s);
  inv_pending : forall i, (i < n_tags s)%nat -> visible (get s i) <> nth i (rep s) 0 -> dirty s i;
  inv_sim : forall i, t_simd (get s i) = false -> t_sim (get s i) = 0 }.

Definition wf_tags (ts : list tag) : Prop := forall t, In t ts -> t_simd t = false -> t_sim t = 0.

Lemma Inv_init ts : wf_tags ts -> Inv (init ts).
Proof.
  intros W. split; cbn.
  - apply map_length.
  - intros i Hi H. elim H. symmetry. exact (map_nth visible ts dflt i).
  - intros i. unfold get. cbn. destruct (Nat.lt_ge_cases i (length ts)) as [H|H].
    + apply W. now apply nth_In.
    + rewrite nth_overflow by lia. reflexivity.
Qed.

Lemma Inv_notify s i : Inv s -> Inv (notify s i).
Proof.
  intros [L P S]. split; [exact L| |exact S]. intros j Hj Hne.
  destruct (P j Hj Hne) as [H|H]; [left|right; exact H]. apply In_add. now left.
Qed.

Lemma Inv_set_tag s i t :
  Inv s -> (t_simd t = false -> t_sim t = 0) -> visible t = visible (get s i) \/ dirty s i -> Inv (set_tag s i t).
Proof.
  intros [L P S] Ht Hv. split.
  - cbn. now rewrite upd_length.
  - unfold n_tags. cbn [set_tag tags]. rewrite upd_length. intros j Hj. rewrite get_set.
    destruct (Nat.eqb_spec i j) as [<-|]; [|exact (P j Hj)]. destruct (Nat.ltb _ _); [|exact (P i Hj)].
    cbn [andb]. destruct Hv as [->|Hd]; [exact (P i Hj)|intros _; exact Hd].
  - intros j. rewrite get_set. destruct (_ && _); [exact Ht|apply S].
Qed.

(* notify and set_tag commute *)
Lemma Inv_write_notify s i t : Inv s -> (t_simd t = false -> t_sim t = 0) -> Inv (notify (set_tag s i t) i).
Proof.
  intros I Ht. change (Inv (set_tag (notify s i) i t)). apply Inv_set_tag; [now apply Inv_notify|exact Ht|].
  right. left. apply In_add. now right.
Qed.

Lemma nth_rep_update (s : st) (q : list nat) j :
  (j < length (rep s))%nat ->
  nth j (map (fun p => if mem (fst p) q then visible (get s (fst p)) else snd p)
             (combine (seq 0 (length (rep s))) (rep s))) 0
  = if mem j q then visible (get s j) else nth j (rep s) 0.
Proof.
  intros Hj.
  set (f := fun p : nat * Z => if mem (fst p) q then visible (get s (fst p)) else snd p).
  rewrite (nth_indep _ 0 (f (0%nat, 0))) by (rewrite map_length, combine_length, seq_length; lia).
  rewrite map_nth. rewrite combine_nth by now rewrite seq_length.
  rewrite seq_nth by exact Hj. cbn. reflexivity.
Qed.

Lemma step_Inv s o : disciplined o = true -> Inv s -> Inv (step s o).
Proof.
  intros D I. destruct o; cbn [disciplined] in D; try discriminate; cbn [step].
  - (* OTick *) destruct I as [L P S]. split; assumption.
  - (* OSet *) destruct (v =? t_val (get s i)); [exact I|]. apply Inv_write_notify; [exact I|]. cbn. apply I.
  - (* OSim *) apply negb_true_iff in D. destruct (v =? t_sim (get s i)) eqn:E.
    + apply Z.eqb_eq in E. destruct (t_simd (get s i)) eqn:Es.
      * apply Inv_set_tag; [exact I|cbn; discriminate|]. left. unfold visible. cbn. now rewrite Es.
      * exfalso. rewrite (inv_sim s I i Es) in E. subst v. discriminate.
    + apply Inv_write_notify; [exact I|cbn; discriminate].
  - (* OStopSim *) destruct (t_simd (get s i)) eqn:Es.
    + apply Inv_write_notify; [exact I|reflexivity].
    + apply Inv_set_tag; [exact I|reflexivity|]. left. unfold visible. cbn. now rewrite Es.
  - (* OStamp *) apply Inv_set_tag; [exact I|cbn; apply I|now left].
  - (* ONotify *) destruct I as [L P S]. split; [exact L| |exact S].
    intros i Hi Hne. right. apply in_or_app. destruct (P i Hi Hne); auto.
  - (* OCollect *) destruct I as [L P S].
    set (q := if snapshot then queue s ++ seq 0 (length (tags s)) else queue s).
    split; cbn [tags changes queue rep].
    + now rewrite map_length, combine_length, seq_length, Nat.min_id.
    + intros i Hi Hne. change (get _ i) with (get s i) in Hne.
      unfold n_tags in Hi. cbn in Hi.
      rewrite nth_rep_update in Hne by lia. fold q in Hne.
      destruct (mem i q) eqn:Eq; [congruence|].
      destruct (P i Hi Hne) as [H|H]; [now left|].
      exfalso. assert (Hq : In i q) by (subst q; destruct snapshot; [apply in_or_app|]; auto).
      apply mem_In in Hq. congruence.
    + exact S.
Qed.

Lemma exec_Inv ops s : forallb disciplined ops = true -> Inv s -> Inv (fold_left step ops s).
Proof.
  intros D I. apply (fold_left_inv_rest (fun s l => forallb disciplined l = true /\ Inv s) step); [|auto].
  intros s' o l [D' I']. cbn in D'. apply andb_true_iff in D' as [D1 D2]. split; [exact D2|now apply step_Inv].
Qed.

Definition next_report (s : st) (snap : bool) : report :=
  last (out (step (step s ONotify) (OCollect snap))) {| r_entries := []; r_truth := [] |}.

Lemma next_report_entries s snap :
  r_entries (next_report s snap)
  = map (entry s) (sort (dedupe (if snap then (queue s ++ changes s) ++ seq 0 (length (tags s)) else queue s ++ changes s) [])).
Proof. unfold next_report. cbn. rewrite last_last. cbn. destruct snap; reflexivity. Qed.

Theorem report_complete s i :
  Inv s -> (i < n_tags s)%nat -> visible (get s i) <> nth i (rep s) 0 ->
  In (i, visible (get s i), t_stamp (get s i)) (r_entries (next_report s false)).
Proof.
  intros I Hi Hne. rewrite next_report_entries. apply in_map_iff. exists i. split; [reflexivity|].
  rewrite In_sort, In_dedupe. split; [|tauto]. rewrite in_app_iff. destruct (inv_pending s I i Hi Hne); auto.
Qed.

Theorem report_nodup s snap : NoDup (map (fun e => fst (fst e)) (r_entries (next_report s snap))).
Proof.
  rewrite next_report_entries, map_map. cbn. rewrite map_id. apply NoDup_sort, NoDup_dedupe.
Qed.

Theorem snapshot_all s i : (i < n_tags s)%nat ->
  In (i, visible (get s i), t_stamp (get s i)) (r_entries (next_report s true)).
Proof.
  intros Hi. rewrite next_report_entries. apply in_map_iff. exists i. split; [reflexivity|].
  rewrite In_sort, In_dedupe. split; [|tauto]. apply in_or_app. right. apply in_seq. unfold n_tags in Hi. lia.
Qed.

Theorem report_values_current s snap i v stp :
  In (i, v, stp) (r_entries (next_report s snap)) -> v = visible (get s i) /\ stp = t_stamp (get s i).
Proof.
  rewrite next_report_entries. intros H. apply in_map_iff in H as [j [E _]]. unfold entry in E. inversion E; subst. auto.
Qed.

(* with a raw assignment the statement fails: Block Time as it was *)
Definition raw_witness_tags : list tag := [{| t_val := 1; t_sim := 0; t_simd := false; t_stamp := 0 |}].
Definition raw_witness_ops : list op := [OTick 10; ORawVal 0 2].
Lemma raw_assignment_unreported :
  let s := exec raw_witness_tags raw_witness_ops in
  visible (get s 0) <> nth 0 (rep s) 0 /\ r_entries (next_report s false) = [].
Proof. vm_compute. split; [discriminate|reflexivity]. Qed.

Fixpoint stamps_ok (nowt : Z) (ops : list op) : bool :=
  match ops with
  | [] => true
  | OTick t :: r => (nowt <=? t) && stamps_ok t r
  | OSet _ _ stp :: r | OSim _ _ stp :: r | OStamp _ stp :: r => (stp =? nowt) && stamps_ok nowt r
  | _ :: r => stamps_ok nowt r
  end.

Definition bounded (s : st) : Prop := forall i, t_stamp (get s i) <= now s.

Lemma now_step s o : now (step s o) = match o with OTick t => t | _ => now s end.
Proof.
  destruct o; cbn [step]; try reflexivity.
  - (* OSet *) now destruct (v =? _).
  - (* OSim *) now destruct (v =? _).
  - (* OStopSim *) now destruct (t_simd _).
Qed.

Definition stamp_arg (o : op) : option Z :=
  match o with OSet _ _ stp | OSim _ _ stp | OStamp _ stp => Some stp | _ => None end.

Lemma stamp_set s i t j a :
  t_stamp t = t_stamp (get s i) \/ a = Some (t_stamp t) ->
  t_stamp (get (set_tag s i t) j) = t_stamp (get s j) \/ a = Some (t_stamp (get (set_tag s i t) j)).
Proof.
  intros H. rewrite get_set. destruct (Nat.eqb_spec i j) as [<-|]; [|now left].
  destruct (Nat.ltb _ _); [|now left]. cbn [andb]. destruct H as [->|H]; auto.
Qed.

Lemma step_stamp s o j :
  t_stamp (get (step s o) j) = t_stamp (get s j) \/ stamp_arg o = Some (t_stamp (get (step s o) j)).
Proof.
  destruct o; cbn [step stamp_arg]; try now left.
  - (* OSet *) destruct (v =? _); [now left|]. rewrite get_notify. apply stamp_set. cbn. auto.
  - (* OSim *) destruct (v =? _); rewrite ?get_notify; apply stamp_set; cbn; auto.
  - (* OStopSim *) destruct (t_simd _); rewrite ?get_notify; apply stamp_set; cbn; auto.
  - (* ORawVal *) apply stamp_set. cbn. auto.
  - (* ORawSim *) apply stamp_set. cbn. auto.
  - (* ORawFlag *) apply stamp_set. cbn. auto.
  - (* OStamp *) apply stamp_set. cbn. auto.
Qed.

Lemma stamps_ok_step s o r :
  stamps_ok (now s) (o :: r) = true ->
  now s <= now (step s o) /\ stamps_ok (now (step s o)) r = true /\
  forall stp, stamp_arg o = Some stp -> stp = now (step s o).
Proof.
  (* an operation that passes a stamp *)
  assert (St : forall stp, (stp =? now s) && stamps_ok (now s) r = true ->
                 now s <= now s /\ stamps_ok (now s) r = true /\ forall stp', Some stp = Some stp' -> stp' = now s).
  { intros stp H. apply andb_true_iff in H as [H1 H2]. apply Z.eqb_eq in H1.
    split; [lia|split; [exact H2|congruence]]. }
  rewrite now_step.
  destruct o; cbn [stamps_ok stamp_arg]; try (intros H; split; [lia|split; [exact H|discriminate]]).
  - (* OTick *) intros H. apply andb_true_iff in H as [H1 H2]. apply Z.leb_le in H1.
    split; [exact H1|split; [exact H2|discriminate]].
  - (* OSet *) apply St.
  - (* OSim *) apply St.
  - (* OStamp *) apply St.
Qed.

Lemma step_stamps s o r :
  stamps_ok (now s) (o :: r) = true -> bounded s ->
  bounded (step s o) /\ stamps_ok (now (step s o)) r = true /\
  (forall i, t_stamp (get s i) <= t_stamp (get (step s o) i)) /\
  (forall i, t_stamp (get (step s o) i) = t_stamp (get s i) \/ t_stamp (get (step s o) i) = now (step s o)).
Proof.
  intros H B. destruct (stamps_ok_step s o r H) as [N [H' A]].
  assert (C : forall i, t_stamp (get (step s o) i) = t_stamp (get s i) \/ t_stamp (get (step s o) i) = now (step s o)).
  { intros i. destruct (step_stamp s o i) as [K|K]; [now left|right; now apply A]. }
  split; [|split; [exact H'|split; [|exact C]]]; intros i; specialize (B i); destruct (C i) as [K|K]; rewrite K; lia.
Qed.

Lemma run_stamps ops : forall s, stamps_ok (now s) ops = true -> bounded s ->
  bounded (fold_left step ops s) /\ (forall i, t_stamp (get s i) <= t_stamp (get (fold_left step ops s) i)).
Proof.
  intros s H B.
  apply (fold_left_inv_rest (fun s' l => stamps_ok (now s') l = true /\ bounded s' /\
                                         forall i, t_stamp (get s i) <= t_stamp (get s' i)) step);
    [|split; [exact H|split; [exact B|intros; lia]]].
  intros s' o l [H' [B' M]]. destruct (step_stamps s' o l H' B') as [B'' [H'' [M' _]]].
  split; [exact H''|split; [exact B''|]]. intros i. specialize (M i). specialize (M' i). lia.
Qed.

Lemma set_stamped s i v stp :
  (i < n_tags s)%nat -> v <> t_val (get s i) ->
  let s' := step s (OSet i v stp) in t_val (get s' i) = v /\ t_stamp (get s' i) = stp.
Proof.
  intros Hi Hv. cbn [step]. destruct (v =? t_val (get s i)) eqn:E; [apply Z.eqb_eq in E; congruence|].
  apply Nat.ltb_lt in Hi. rewrite get_notify, get_set, Nat.eqb_refl, Hi. cbn. auto.
Qed.

Lemma tick_number_stamp_caught :
  c16_holds_b ([(1, 0, false, 0)], [OTick 4000; OSet 0 2 3; ONotify; OCollect false])
              (run ([(1, 0, false, 0)], [OTick 4000; OSet 0 2 3; ONotify; OCollect false])) = false.
Proof. vm_compute. reflexivity. Qed.
