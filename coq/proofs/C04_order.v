(* C04 (activation clause): after every tick of every run of the interpreter model, outside the bodies of Alarms and Macros a
   started line whose parent is a Watch has an ACTIVATED parent -- the body of a Watch runs only after its condition held.
   An instance of section Scope of C02_order.v: every frame that may push the children loop of a Watch carries the
   activation of that Watch, and activation is never withdrawn outside Alarm / Macro bodies. *)
From Coq Require Import ZArith List Bool Arith Lia.
From OP Require Import lib.Obs model.Interp model.InterpRun proofs.Interp_stack proofs.Interp_inv proofs.Interp_fields proofs.C02_order.
Import ListNotations.
Open Scope Z_scope.

Section Activation.
  Variable p : program.
  Hypothesis WF : wf_b p = true.

  Definition isW (q : nat) : bool := match n_kind (nd p q) with KWatch => true | _ => false end.
  Definition actd (s : S) (q : nat) : Prop := plain p q = true -> isW q = true -> activated (st s q) = true.
  Definition visA (s : S) (n : nat) : Prop := forall q, par p n q -> actd s q.
  (* Every frame of a line carries the line's scope (visA); the children loop carries the gate (actd). Another frame
     carries the gate iff the code after it reaches FKidsEntry n without passing a test that establishes it: a match on the
     line's kind (a Watch or not) or the test of `activated`. *)
  Definition Q (s : S) (f : frame) : Prop :=
    match f with
    | FVisit c | FThr c => visA s c
    | FRet | FProgAfter | FProgIdle => True
    | FKidsEntry n | FKids n _ | FKidsAfter n _ => actd s n
    | FBlkA n | FBlkWait n | FBlkB n | FWatchInv n | FAlarmInv n => visA s n /\ actd s n
    | FNodeTick n | FVisitEnd n | FMark1 n | FBlankIdle n | FBlank1 n | FBlkC n | FBlkEnd n
    | FWait n _ | FNoop n _ | FWatchAwait n | FWatchBody n | FAlarmAwait n | FAlarmBody n
    | FAlarmPost n | FInjAfter n | FMacro1 n | FCallAfter n _ => visA s n
    end.
  Definition R (s s' : S) : Prop := forall m, plain p m = true -> activated (st s m) = true -> activated (st s' m) = true.

  Lemma Q_stable s s' f : R s s' -> Q s f -> Q s' f.
  Proof.
    intros H. destruct f; cbn [Q]; try exact id; try (apply scoped_stable; exact H);
      try (apply gated_stable; exact H);
      intros [A B]; (split; [eapply scoped_stable|eapply gated_stable]; eassumption).
  Qed.

  Definition Aact (m : nat) (x x' : ns) : Prop := plain p m = true -> activated x = true -> activated x' = true.
  Lemma step_R e b f k s : R s (o_state (step p e b f k s)).
  Proof.
    refine (node_step p e Aact _ _ _ f b k s _); unfold Aact; auto.
    intros s0 m x x' U P. destruct U; cbn; auto. (* u_reset *) rewrite (plain_repeats p a m K D) in P. discriminate.
  Qed.

  (* As in C02_order.v, a pushed frame inherits Q from the popped one by stability under R, except FVisit c pushed by FKids
     (scoped_kid) and a frame that carries the gate pushed by one that does not: there the gate is known from the kind just
     matched (gated_kind) or from the `activated` test just passed. *)
  Ltac by_frame_reason HR :=
    lazymatch goal with
    | |- True => exact I
    | |- _ /\ _ => split; by_frame_reason HR
    | |- visA _ _ => first [ eapply scoped_stable; [exact HR|assumption]
                           | match goal with H : nth_error _ _ = Some ?c |- visA _ ?c =>
                               eapply (scoped_kid p WF); [exact H|eapply gated_stable; [exact HR|assumption]] end ]
    | |- actd _ ?n => first [ eapply gated_stable; [exact HR|assumption]
                            | match goal with K : n_kind (nd p n) = _ |- _ => apply gated_kind; unfold isW; rewrite K; reflexivity end
                            | match goal with H : activated (st ?s n) = true |- _ =>
                                eapply gated_stable; [exact HR|intros _ _; exact H] end ]
    end.

  Lemma step_frames e b f k s : Q s f ->
    R s (o_state (step p e b f k s)) -> Forall (Q (o_state (step p e b f k s))) k ->
    Forall (Q (o_state (step p e b f k s))) (o_stack (step p e b f k s)).
  Proof.
    intros HQ. destruct f; cbn [Q] in HQ; try (match type of HQ with _ /\ _ => destruct HQ as [Hv Ho] end); cbn [step]; unf.
    3: unfold dispatch; unf.
    all: cases; cbn [o_state o_stack]. all: intros HR Hk; repeat (apply Forall_cons); try exact Hk; cbn [Q]; by_frame_reason HR.
  Qed.
End Activation.

(* C04: the scopes are the Watches, their flag is activated *)
Theorem activation_always_upd p upd apply ts : wf_b p = true -> quiet_upds p activated upd apply ts ->
  Forall (fun s => forall c q, n_parent (nd p c) = Some q -> n_kind (nd p q) = KWatch -> plain p c = true -> plain p q = true ->
                               started (st s c) = true -> activated (st s q) = true)
         (gstates p upd apply [FVisit 0] (init p) 0 ts).
Proof.
  intros W U. eapply Forall_impl; [|apply (scope_always p W (isW p) activated (Q p)); [..|exact U]].
  - intros s [_ H] c q Pq Kq Pc Pl Sc. apply (H c q Pq Pc Sc Pl). unfold isW. now rewrite Kq.
  - intros s f n [-> | [-> | [-> | ->]]] H; exact H.
  - intros s n H. exact H.
  - intros s s' f H. apply Q_stable, H.
  - apply step_R.
  - intros x H. exact H.
  - intros x H. exact H.
  - intros e b f k s _ HQ HR. exact (step_frames p W e b f k s HQ (proj2 HR)).
Qed.

Theorem watch_body_runs_only_after_activation p ts : wf_b p = true ->
  Forall (fun s => forall c q, n_parent (nd p c) = Some q -> n_kind (nd p q) = KWatch -> plain p c = true -> plain p q = true ->
                               started (st s c) = true -> activated (st s q) = true)
         (states p [FVisit 0] (init p) 0 ts).
Proof. intros W. rewrite states_gstates. apply (activation_always_upd p _ _ _ W), no_upds. Qed.
