(* C12 / C04 over whole runs WITH cancel and force requests (the run function of model/C12.v: command completions, then the
   requests of the tick, then the tick):
   (1) a started line of a Watch body has an activated Watch (the stack invariant of C04_order.v; requests touch neither
       started nor activated flags nor the interrupt map);
   (2) a line outside Alarm / Macro bodies that is cancelled and not activated stays so for the rest of the run: no request
       is carried out on a cancelled node, no tick activates it;
   (3) hence no line of the body of a Watch cancelled before its activation ever starts. *)
From Coq Require Import ZArith List Bool Arith Lia.
From OP Require Import lib.Obs lib.ListFacts model.Interp model.InterpRun model.C12 proofs.Interp_base proofs.Interp_stack proofs.C02_proofs proofs.C12_proofs
     proofs.C02_order proofs.C04_order.
Import ListNotations.
Open Scope Z_scope.

Section Runs.
  Variable p : program.
  Variable fl : flags.

  Definition apply_req (s : S) (r : req) : S := fst (request p fl s r).
  Lemma requests_fold rs : forall s, fst (requests p fl s rs) = fold_left apply_req rs s.
  Proof.
    induction rs as [|r rs IH]; intros s; cbn [requests fold_left]; [reflexivity|].
    unfold apply_req at 2. destruct (request p fl s r) as [s1 a]. cbn [fst]. rewrite <- IH. now destruct (requests p fl s1 rs).
  Qed.

  (* the states after the ticks of the run of model/C12.v *)
  Fixpoint rstates (main : stack) (s : S) (now : Z) (ts : list tick_req) : list S :=
    match ts with
    | [] => []
    | q :: ts' =>
        let t := q_tick q in
        let s1 := fst (requests p fl (fold_left (complete_cmd p) (t_complete t) s) (q_reqs q)) in
        let now' := now + 5 * t_dt t in
        let e := {| e_time := now'; e_thr_wait := t_thr_wait t; e_cond_true := t_cond_true t; e_cond_err := t_cond_err t |} in
        match tick p (rounds_of p) (fuel_of p) e main s1 with
        | None => []
        | Some (main', s2, _) => s2 :: rstates main' s2 now' ts'
        end
    end.
  Lemma run_ticks_nodes ts : forall main s now,
    map (fun v => v_nodes (tv_view v)) (run_ticks p fl main s now ts) = map nodes (rstates main s now ts).
  Proof.
    induction ts as [|q ts IH]; intros main s now; cbn [run_ticks rstates map]; [reflexivity|].
    destruct (requests p fl (fold_left (complete_cmd p) (t_complete (q_tick q)) s) (q_reqs q)) as [s1 acc]. cbn [fst].
    destruct (tick p (rounds_of p) (fuel_of p) _ main s1) as [[[main' s2] r]|]; [|reflexivity].
    cbn [map tv_view v_nodes]. now rewrite IH.
  Qed.
  Lemma rstates_gstates ts : forall main s now,
    rstates main s now ts = gstates p req apply_req main s now (map (fun q => (q_tick q, q_reqs q)) ts).
  Proof.
    induction ts as [|q ts IH]; intros main s now; cbn [rstates gstates map]; [reflexivity|].
    rewrite requests_fold. destruct (tick p (rounds_of p) (fuel_of p) _ main _) as [[[main' s2] r]|]; [|reflexivity]. now rewrite IH.
  Qed.

  Lemma apply_req_cases s r :
    apply_req s r = s \/
    cancelled (st s (r_node r)) = false /\ exists c f, apply_req s r = set_ns s (r_node r) (set_cf (st s (r_node r)) c f).
  Proof.
    unfold apply_req. destruct (request_cases p fl s r) as [->|[[_ [_ [G ->]]]|[_ [_ [G ->]]]]]; cbn [fst]; [now left|right..].
    - split; [exact (allowed_not_cancelled p fl s _ (or_introl G))|eauto].
    - split; [exact (allowed_not_cancelled p fl s _ (or_intror G))|eauto].
  Qed.
  Lemma apply_req_st s r m : exists c f, st (apply_req s r) m = set_cf (st s m) c f.
  Proof.
    assert (Id : forall x, exists c f, x = set_cf x c f) by (intros x; exists (cancelled x), (forced x); now destruct x).
    destruct (apply_req_cases s r) as [->|[_ [c [f ->]]]]; [apply Id|].
    apply (set_ns_rel (fun _ y z => exists c f, z = set_cf y c f)); eauto.
  Qed.
  Lemma apply_req_activated s r m : activated (st (apply_req s r) m) = activated (st s m).
  Proof. destruct (apply_req_st s r m) as [c [f E]]. now rewrite E. Qed.
  Lemma apply_req_started s r m : started (st (apply_req s r) m) = started (st s m).
  Proof. destruct (apply_req_st s r m) as [c [f E]]. now rewrite E. Qed.
  Lemma apply_req_len s r : length (nodes (apply_req s r)) = length (nodes s).
  Proof. destruct (apply_req_cases s r) as [->|[_ [c [f ->]]]]; [reflexivity|apply l_set_ns]. Qed.
  Lemma apply_req_ints s r : ints (apply_req s r) = ints s.
  Proof. destruct (apply_req_cases s r) as [->|[_ [c [f ->]]]]; reflexivity. Qed.

  Theorem req_watch_body_only_after_activation ts : wf_b p = true ->
    Forall (fun s => forall c q, n_parent (nd p c) = Some q -> n_kind (nd p q) = KWatch -> plain p c = true -> plain p q = true ->
                                 started (st s c) = true -> activated (st s q) = true)
           (rstates [FVisit 0] (init p) 0 ts).
  Proof.
    intros W. rewrite rstates_gstates. apply (activation_always_upd p _ _ _ W).
    repeat split; [apply apply_req_activated|apply apply_req_started|apply apply_req_len|].
    intros _ _ r _ _ s x H. left. now rewrite apply_req_ints in H.
  Qed.

  Definition dead (q : nat) (s : S) : Prop := cancelled (st s q) = true /\ activated (st s q) = false.
  Lemma dead_req q s r : dead q s -> dead q (apply_req s r).
  Proof.
    intros [C A]. destruct (apply_req_cases s r) as [->|[N [c [f ->]]]]; [now split|]. unfold dead.
    destruct (st_set_ns_cases s (r_node r) (set_cf (st s (r_node r)) c f) q) as [->|[-> _]]; [now split|congruence].
  Qed.
  Lemma dead_cmd q s n : dead q s -> dead q (mark_completed s n).
  Proof. unfold dead. destruct (st_mark_completed s n q) as [b ->]. exact id. Qed.

  Fixpoint from_then (P Qp : S -> Prop) (l : list S) : Prop :=
    match l with [] => True | s :: l' => (P s -> Qp s /\ Forall Qp l') /\ from_then P Qp l' end.

  Lemma dead_run q ts : under_alarm p q = false -> forall main s now, dead q s -> Forall (dead q) (rstates main s now ts).
  Proof.
    intros U main s now. rewrite rstates_gstates. apply (gstates_ind p _ _ (fun _ => True) (fun _ => dead q) (dead q)); auto.
    - intros _ s0 n. apply dead_cmd.
    - intros _ s0 r _. apply dead_req.
    - intros e k s0 k' s' r [C A] Tk. destruct (tick_cancelled p _ _ _ _ _ _ _ _ Tk q U) as [K1 K2]. split; auto.
  Qed.
  Theorem cancelled_unactivated_stays ts q : under_alarm p q = false ->
    forall main s now, from_then (dead q) (dead q) (rstates main s now ts).
  Proof.
    intros U. induction ts as [|t ts IH]; intros main s now; cbn [rstates from_then]; [exact I|].
    destruct (tick p (rounds_of p) (fuel_of p) _ main _) as [[[main' s2] r]|] eqn:Tk; [|exact I].
    cbn [from_then]. split; [|apply IH]. intros H. split; [exact H|]. now apply dead_run.
  Qed.

  Lemma from_then_impl (P Q1 Q2 : S -> Prop) l : Forall (fun s => Q1 s -> Q2 s) l -> from_then P Q1 l -> from_then P Q2 l.
  Proof.
    induction l as [|s l IH]; intros F H; cbn [from_then] in *; [exact I|].
    destruct H as [H1 H2]. split; [|apply IH; [exact (Forall_inv_tail F)|exact H2]].
    intros Ps. destruct (H1 Ps) as [A B]. split; [exact (Forall_inv F A)|exact (Forall_mp _ _ _ (Forall_inv_tail F) B)].
  Qed.
  Theorem cancelled_watch_body_never_starts ts q : wf_b p = true -> n_kind (nd p q) = KWatch -> plain p q = true ->
    from_then (dead q)
              (fun s => forall c, n_parent (nd p c) = Some q -> plain p c = true -> started (st s c) = false)
              (rstates [FVisit 0] (init p) 0 ts).
  Proof.
    intros W K Pl.
    assert (U : under_alarm p q = false).
    { unfold plain in Pl. destruct (under_alarm p q); [|reflexivity]. cbn in Pl. now rewrite andb_false_r in Pl. }
    eapply from_then_impl; [|apply (cancelled_unactivated_stays ts q U)].
    eapply Forall_impl; [|exact (req_watch_body_only_after_activation ts W)].
    intros s H [C A] c Pq Pc. destruct (started (st s c)) eqn:Sc; [|reflexivity].
    rewrite (H c q Pq K Pc Pl Sc) in A. discriminate.
  Qed.
End Runs.
