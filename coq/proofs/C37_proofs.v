(* Proofs about active-user tracking (model/C37.v): on the histories the frontend's protocol allows, every listed
   user has a live connection. The switch map moves by next_g whatever the unit lists hold, so a run carries
   along (Good) that the map is a dict, the invariant, and that the rest of the history is valid. *)
From Coq Require Import ZArith List Bool Arith Lia.
From OP Require Import lib.Obs lib.ListFacts model.C37.
Import ListNotations.

Definition Fun (sw : list (conn * user)) : Prop :=
  forall c u1 u2, In (c, u1) sw -> In (c, u2) sw -> u1 = u2.

Definition Inv (s : st) : Prop :=
  forall l, In l (active s) -> forall u, In u l -> live u (switches s) = true.

Lemma in_upd {A} n (f : A -> A) l x : In x (upd n f l) -> In x l \/ exists y, In y l /\ x = f y.
Proof.
  revert n. induction l as [|a l IH]; intros [|n]; cbn; [tauto|tauto| |].
  - intros [<-|H]; [right; exists a|]; auto.
  - intros [<-|H]; [auto|]. destruct (IH _ H) as [H'|[y [Hy ->]]]; [auto|right; exists y; auto].
Qed.

Lemma nth_upd {A} n (f : A -> A) l d : (n < length l)%nat -> nth n (upd n f l) d = f (nth n l d).
Proof. revert n. induction l as [|a l IH]; intros [|n] H; cbn in *; try lia; [reflexivity|]. apply IH. lia. Qed.

Lemma in_remove_user u x l : In x (remove_user u l) -> In x l /\ x <> u.
Proof.
  unfold remove_user. intros H. apply filter_In in H as [H1 H2]. split; [exact H1|].
  apply negb_true_iff, Nat.eqb_neq in H2. exact H2.
Qed.

Lemma not_in_remove u l : has_user u (remove_user u l) = false.
Proof.
  destruct (has_user u _) eqn:E; [|reflexivity]. apply existsb_eqb_In, in_remove_user in E. now destruct E.
Qed.

Lemma live_In u sw : live u sw = true <-> exists c, In (c, u) sw.
Proof.
  unfold live. rewrite existsb_exists. split.
  - intros [[c u'] [Hin E]]. apply Nat.eqb_eq in E. cbn in E. subst u'. now exists c.
  - intros [c Hin]. exists (c, u). split; [exact Hin|apply Nat.eqb_refl].
Qed.

Lemma in_get_switch c u sw : Fun sw -> In (c, u) sw -> get_switch c sw = Some u.
Proof.
  induction sw as [|[c0 u0] sw IH]; intros HF Hin; [contradiction|]. cbn.
  destruct (Nat.eqb_spec c0 c) as [->|N].
  - f_equal. apply (HF c); [now left|exact Hin].
  - destruct Hin as [E|Hin]; [congruence|]. apply IH; [|exact Hin]. intros c' u1 u2 H1 H2. apply (HF c'); now right.
Qed.

Lemma get_switch_in c sw u : get_switch c sw = Some u -> In (c, u) sw.
Proof.
  induction sw as [|[c0 u0] sw IH]; cbn; [discriminate|].
  destruct (Nat.eqb_spec c0 c) as [->|]; [intros [= ->]; now left|right; auto].
Qed.

Lemma get_none_filter c (sw : list (conn * user)) :
  get_switch c sw = None -> filter (fun e => negb (Nat.eqb (fst e) c)) sw = sw.
Proof.
  induction sw as [|[c0 u0] sw IH]; cbn; [reflexivity|].
  destruct (Nat.eqb c0 c); [discriminate|]. intros H. cbn. f_equal. auto.
Qed.

Lemma Fun_filter f sw : Fun sw -> Fun (filter f sw).
Proof. intros H c u1 u2 H1 H2. apply filter_In in H1 as [H1 _], H2 as [H2 _]. eapply H; eauto. Qed.

Lemma Fun_set_switch c u sw : Fun sw -> Fun (set_switch c u sw).
Proof.
  intros H c' u1 u2 [E1|H1] [E2|H2].
  - congruence.
  - inversion E1; subst. apply filter_In in H2 as [_ H2]. cbn in H2. now rewrite Nat.eqb_refl in H2.
  - inversion E2; subst. apply filter_In in H1 as [_ H1]. cbn in H1. now rewrite Nat.eqb_refl in H1.
  - apply filter_In in H1 as [H1 _], H2 as [H2 _]. exact (H _ _ _ H1 H2).
Qed.

Lemma live_filter_other c u v sw :
  Fun sw -> get_switch c sw = Some u -> v <> u -> live v sw = true ->
  live v (filter (fun e => negb (Nat.eqb (fst e) c)) sw) = true.
Proof.
  intros HF Hg Hne Hl. apply live_In in Hl as [c' Hin]. apply live_In. exists c'.
  apply filter_In. split; [exact Hin|]. cbn. apply negb_true_iff, Nat.eqb_neq. intros ->.
  exact (Hne (HF c v u Hin (get_switch_in _ _ _ Hg))).
Qed.

Lemma live_set_switch c u v sw :
  Fun sw -> match get_switch c sw with Some u' => Nat.eqb u u' | None => true end = true ->
  live v sw = true -> live v (set_switch c u sw) = true.
Proof.
  intros HF Hc Hl. apply live_In in Hl as [c' Hin]. apply live_In. destruct (Nat.eq_dec c' c) as [->|N].
  - rewrite (in_get_switch c v sw HF Hin) in Hc. apply Nat.eqb_eq in Hc. subst v. exists c. now left.
  - exists c'. right. apply filter_In. split; [exact Hin|]. cbn. now apply negb_true_iff, Nat.eqb_neq.
Qed.

(* the ghost update of valid and monitor *)
Definition next_g (g : list (conn * user)) (o : op) : list (conn * user) :=
  match o with
  | Sub c u => set_switch c u g
  | Disc c => filter (fun e => negb (Nat.eqb (fst e) c)) g
  | _ => g
  end.

Lemma switches_step s o : switches (fst (step s o)) = next_g (switches s) o.
Proof.
  destruct o as [c u|e u|e u|c]; cbn [step next_g].
  - reflexivity.
  - now destruct (Nat.ltb _ _).
  - destruct (Nat.ltb _ _); [|reflexivity]. now destruct (has_user _ _).
  - destruct (get_switch c (switches s)) eqn:Hg; [now destruct (live _ _)|]. symmetry. now apply get_none_filter.
Qed.

Lemma Fun_next_g g o : Fun g -> Fun (next_g g o).
Proof. intros H. destruct o; cbn; [now apply Fun_set_switch|exact H|exact H|now apply Fun_filter]. Qed.

Lemma valid_tail g o os : valid g (o :: os) = true -> valid (next_g g o) os = true.
Proof. destruct o; cbn [valid next_g]; intros H; try apply andb_true_iff in H as [_ H]; exact H. Qed.

Lemma step_Inv s o os :
  Fun (switches s) -> Inv s -> valid (switches s) (o :: os) = true -> Inv (fst (step s o)).
Proof.
  intros HF HI HV. destruct o as [c u|e u|e u|c]; cbn [valid] in HV; cbn [step].
  - apply andb_true_iff in HV as [Hc _]. intros l Hl v Hv. apply live_set_switch; [exact HF|exact Hc|now apply (HI l)].
  - apply andb_true_iff in HV as [Hlive _]. destruct (Nat.ltb e (length (active s))); [|exact HI].
    intros l Hl v Hv.
    apply in_upd in Hl as [Hl|[y [Hy ->]]]; [now apply (HI l)|].
    destruct (has_user u y); [now apply (HI y)|].
    apply in_app_or in Hv as [Hv|[<-|[]]]; [now apply (HI y)|exact Hlive].
  - destruct (Nat.ltb e (length (active s))); [|exact HI].
    destruct (has_user u (nth e (active s) [])); [|exact HI].
    intros l Hl v Hv.
    apply in_upd in Hl as [Hl|[y [Hy ->]]]; [now apply (HI l)|].
    apply in_remove_user in Hv as [Hv _]. now apply (HI y).
  - destruct (get_switch c (switches s)) as [u|] eqn:Hg; [|exact HI].
    destruct (live u _) eqn:Hlu; intros l Hl v Hv.
    + destruct (Nat.eq_dec v u) as [->|Hne]; [exact Hlu|].
      apply (live_filter_other c u); [exact HF|exact Hg|exact Hne|now apply (HI l)].
    + apply in_map_iff in Hl as [y [<- Hy]]. apply in_remove_user in Hv as [Hv Hne].
      apply (live_filter_other c u); [exact HF|exact Hg|exact Hne|now apply (HI y)].
Qed.

Definition Good (s : st) (os : list op) : Prop := Fun (switches s) /\ Inv s /\ valid (switches s) os = true.

Lemma Good_step s o os : Good s (o :: os) -> Good (fst (step s o)) os.
Proof.
  intros [HF [HI HV]]. unfold Good. rewrite switches_step.
  split; [now apply Fun_next_g|]. split; [now apply (step_Inv s o os)|now apply valid_tail].
Qed.

Lemma reachable_inv os : forall s,
  Fun (switches s) -> Inv s -> valid (switches s) os = true -> Inv (final s os).
Proof.
  intros s HF HI HV. apply (fold_left_inv_rest Good (fun s o => fst (step s o)) Good_step os s). now repeat split.
Qed.

Lemma last_disconnect_removes s c u :
  get_switch c (switches s) = Some u ->
  live u (filter (fun e => negb (Nat.eqb (fst e) c)) (switches s)) = false ->
  forall l, In l (active (fst (step s (Disc c)))) -> has_user u l = false.
Proof.
  intros Hg Hl l Hin. cbn [step] in Hin. rewrite Hg, Hl in Hin. cbn in Hin.
  apply in_map_iff in Hin as [y [<- _]]. apply not_in_remove.
Qed.

Lemma unreg_removes s e u l :
  In l (active (fst (step s (Unreg e u)))) -> snd (step s (Unreg e u)) = true ->
  nth e (active (fst (step s (Unreg e u)))) [] = remove_user u (nth e (active s) []).
Proof.
  intros _. cbn [step]. destruct (Nat.ltb e (length (active s))) eqn:E; [|discriminate].
  destruct (has_user u (nth e (active s) [])); [|discriminate]. intros _. apply nth_upd. now apply Nat.ltb_lt.
Qed.

Lemma run_ops_cons s o os :
  run_ops s (o :: os) = (snd (step s o), active (fst (step s o))) :: run_ops (fst (step s o)) os.
Proof. cbn. now destruct (step s o). Qed.

Lemma monitor_cons g o os r act out :
  monitor g (o :: os) ((r, act) :: out)
  = forallb (forallb (fun u => live u (next_g g o))) act && monitor (next_g g o) os out.
Proof. reflexivity. Qed.

Lemma monitor_sound os : forall s, Good s os -> monitor (switches s) os (run_ops s os) = true.
Proof.
  induction os as [|o os IH]; intros s G; [reflexivity|]. apply Good_step in G.
  rewrite run_ops_cons, monitor_cons, <- switches_step. apply andb_true_iff. split; [|now apply IH].
  destruct G as [_ [HI _]]. apply forallb_forall. intros l Hl. apply forallb_forall. intros u Hu. now apply (HI l).
Qed.

Lemma model_satisfies_monitor i : holds_b i (run i) = true.
Proof.
  unfold holds_b, run. destruct (valid [] (snd i)) eqn:HV; [|reflexivity].
  apply (monitor_sound (snd i) (init (fst i))). split; [intros c u1 u2 []|split; [|exact HV]].
  intros l Hl u Hu. cbn in Hl. apply repeat_spec in Hl. subst. contradiction.
Qed.
