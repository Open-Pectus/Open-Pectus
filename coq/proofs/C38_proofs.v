(* C38: the engine id is injective on names without underscores (joined_inj_no_underscore; not in general:
   injective_refuted), and the ids of the connected engines stay distinct under every operation (reachable_nodup). *)
From Coq Require Import ZArith List Bool.
From OP Require Import lib.Obs lib.ListFacts model.C38.
Import ListNotations.
Open Scope Z_scope.

(* "a_b" + "c" and "a" + "b_c" join to the same text *)
Lemma injective_refuted (quote : str -> str) :
  ~ (forall c1 u1 c2 u2, (c1, u1) <> (c2, u2) -> engine_id quote c1 u1 <> engine_id quote c2 u2).
Proof.
  intros H. apply (H [97; 95; 98] [99] [97] [98; 95; 99]); [discriminate|reflexivity].
Qed.

(* split at the first underscore *)
Lemma joined_inj_no_underscore c1 : forall c2 u1 u2,
  ~ In underscore c1 -> ~ In underscore c2 ->
  joined c1 u1 = joined c2 u2 -> c1 = c2 /\ u1 = u2.
Proof.
  unfold joined. induction c1 as [|x c1 IH]; intros [|y c2] u1 u2 H1 H2 E; cbn in *.
  - inversion E. auto.
  - inversion E. subst. exfalso. apply H2. now left.
  - inversion E. subst. exfalso. apply H1. now left.
  - inversion E. subst. destruct (IH c2 u1 u2) as [-> ->]; auto.
Qed.

Section Quote.
  Variable quote : str -> str.
  Hypothesis quote_injective : forall a b, quote a = quote b -> a = b.

  Lemma id_eq_iff c1 u1 c2 u2 :
    engine_id quote c1 u1 = engine_id quote c2 u2 <-> joined c1 u1 = joined c2 u2.
  Proof. unfold engine_id. split; [apply quote_injective|congruence]. Qed.

  Lemma injective_partial c1 u1 c2 u2 :
    ~ In underscore c1 -> ~ In underscore c2 ->
    (c1, u1) <> (c2, u2) -> engine_id quote c1 u1 <> engine_id quote c2 u2.
  Proof.
    intros H1 H2 Hne E. apply id_eq_iff in E.
    destruct (joined_inj_no_underscore _ _ _ _ H1 H2 E) as [-> ->]. now apply Hne.
  Qed.
End Quote.

Lemma reg_refused_when_connected names s p sec ver ign :
  is_connected s (key_of names p) = true ->
  step names s (Reg p sec ver ign) = (s, false).
Proof. intros H. cbn. destruct (negb sec); [reflexivity|]. now rewrite H. Qed.

Lemma reg_never_changes_connections names s p sec ver ign :
  fst (step names s (Reg p sec ver ign)) = s.
Proof.
  cbn. destruct (negb sec); [reflexivity|].
  destruct (is_connected s (key_of names p)); [reflexivity|].
  destruct (negb ver && negb ign); reflexivity.
Qed.

Definition ids (s : st) := map fst s.

Lemma not_connected_not_in s k : is_connected s k = false -> ~ In k (ids s).
Proof.
  unfold is_connected, ids. intros H Hin. apply in_map_iff in Hin as [e [<- He]].
  apply not_true_iff_false in H. apply H, existsb_exists. exists e. split; [exact He|apply str_eqb_refl].
Qed.

Lemma step_nodup names s o : NoDup (ids s) -> NoDup (ids (fst (step names s o))).
Proof.
  intros H. destruct o as [p sec ver ign|p|p].
  - now rewrite reg_never_changes_connections.
  - cbn. destruct (is_connected s (key_of names p)) eqn:E; cbn; [exact H|].
    constructor; [now apply not_connected_not_in|exact H].
  - cbn. destruct (existsb _ s); cbn; [now apply NoDup_map_filter|exact H].
Qed.

Lemma reachable_nodup names os : forall s, NoDup (ids s) -> NoDup (ids (final names s os)).
Proof.
  induction os as [|o os IH]; intros s H; cbn; [exact H|]. apply IH, step_nodup, H.
Qed.
