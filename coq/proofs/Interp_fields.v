(* "Who writes what" in the interpreter model: a per-node relation A m x x' (allowed change of node m's state during a
   tick with environment e) that is closed under the elementary updates the transitions perform holds between the state
   before and after every tick; one that does not depend on e, between the first state of a run and every later one. *)
From Coq Require Import ZArith List Bool Arith Lia.
From OP Require Import lib.Obs lib.ListFacts model.Interp model.InterpRun proofs.Interp_stack proofs.Interp_inv proofs.Interp_base proofs.Interp_eff.
Import ListNotations.
Open Scope Z_scope.

Section PerNode.
  Variable p : program.
  Variable e : env.
  Variable A : nat -> ns -> ns -> Prop.
  Hypothesis A_refl : forall m x, A m x x.
  Hypothesis A_trans : forall m x y z, A m x y -> A m y z -> A m x z.
  Hypothesis A_end : forall m x, A m x (set_block x (lock_acquired x) true).

  Let ok (s s' : S) : Prop := forall m, A m (st s m) (st s' m).
  Lemma ok_refl s : ok s s. Proof. intros m. apply A_refl. Qed.
  Lemma ok_trans a b c : ok a b -> ok b c -> ok a c. Proof. intros H1 H2 m. eapply A_trans; eauto. Qed.
  Lemma ok_same s s' : nodes s' = nodes s -> ok s s'.
  Proof. intros H m. unfold st. rewrite H. apply A_refl. Qed.
  Lemma ok_set_ns s n x : A n (st s n) x -> ok s (set_ns s n x).
  Proof. intros H m. apply (set_ns_rel A); [intros a; apply A_refl|exact H]. Qed.

  Lemma node_step f b k s : (forall s0 m x x', nupd p e f s0 m x x' -> A m x x') ->
    ok s (match step p e b f k s with Yield _ _ s' => s' | Go _ s' => s' | Raise _ s' => s' end).
  Proof.
    intros A_upd. refine (eff_rel_nodes p e f ok ok_refl ok_trans _ _ ok_same s _ (step_eff p e b f k s)).
    - intros s0 n x U. apply ok_set_ns. exact (A_upd _ _ _ _ U).
    - intros s0 n. apply ok_set_ns, A_end.
  Qed.

  Hypothesis A_upd : forall f s m x x', nupd p e f s m x x' -> A m x x'.

  Theorem node_tick rounds fuel main s main' s' raised : tick p rounds fuel e main s = Some (main', s', raised) -> ok s s'.
  Proof.
    intros T.
    refine (tick_P p e (ok s) _ _ _ _ rounds fuel main s main' s' raised (ok_refl s) T).
    - intros b f k s0 H. apply outcome_ok_of_state. exact (ok_trans _ _ _ H (node_step f b k s0 (A_upd f))).
    - intros s0 n H. eapply ok_trans; [exact H|]. apply (ok_trans _ (set_ns s0 n (set_failed (st s0 n) true))); [|now apply ok_same].
      apply ok_set_ns, (A_upd FRet s0), u_failed.
    - intros s0 n sr k H. eapply ok_trans; [exact H|]. now apply ok_same.
    - intros s0 H. eapply ok_trans; [exact H|]. now apply ok_same.
  Qed.
End PerNode.

Section PerNodeRun.
  Variable p : program.
  Variable A : nat -> ns -> ns -> Prop.
  Hypothesis A_refl : forall m x, A m x x.
  Hypothesis A_trans : forall m x y z, A m x y -> A m y z -> A m x z.
  Hypothesis A_end : forall m x, A m x (set_block x (lock_acquired x) true).
  Hypothesis A_upd : forall e f s m x x', nupd p e f s m x x' -> A m x x'.
  Variable upd : Type.
  Variable apply : S -> upd -> S.
  Hypothesis A_apply : forall s u m, A m (st s m) (st (apply s u) m).

  Theorem node_run ts main s now : Forall (fun s' => forall m, A m (st s m) (st s' m)) (gstates p upd apply main s now ts).
  Proof.
    apply (gstates_ind p upd apply (fun _ => True) (fun _ s' => forall m, A m (st s m) (st s' m)) _); auto.
    - intros _ s0 n H m. apply (A_trans m _ _ _ (H m)). destruct (mark_completed_cases s0 n) as [->| ->]; [apply A_refl|].
      (* the command manager completes a node as u_completed does, whatever the frame and the environment *)
      apply (set_ns_rel A); [intros a; apply A_refl|]. exact (A_upd (Build_env 0 [] [] []) FRet s0 n _ _ (u_completed _ _ _ _ _ _)).
    - intros _ s0 u _ H m. exact (A_trans m _ _ _ (H m) (A_apply s0 u m)).
    - intros e k s0 k' s' r H Tk m. exact (A_trans m _ _ _ (H m) (node_tick p e A A_refl A_trans A_end (A_upd e) _ _ _ _ _ _ _ Tk m)).
  Qed.
End PerNodeRun.

Section Fields.
  Variable p : program.
  Variable e : env.
  Variable A : nat -> ns -> ns -> Prop.
  Variable En : nat -> Prop.

  Hypothesis H_refl : forall m x, A m x x.
  Hypothesis H_trans : forall m x y z, A m x y -> A m y z -> A m x z.
  Hypothesis H_completed : forall m x, A m x (set_completed x true).
  Hypothesis H_failed : forall m x, A m x (set_failed x true).
  Hypothesis H_kids : forall m x a b, A m x (set_kids x a b).
  Hypothesis H_lock : forall m x, A m x (set_block x true (block_ended x)).
  Hypothesis H_end : forall m x, A m x (set_block x (lock_acquired x) true).
  Hypothesis H_unlock : forall m x, block_ended x = true \/ completed x = true -> A m x (set_block x false (block_ended x)).
  Hypothesis H_wait : forall m x w, A m x (set_wait x w).
  Hypothesis H_cond_keep : forall m x i r, A m x (set_cond x (activated x) i r).
  Hypothesis H_activate : forall m x,
    (forced x = true \/ (memn m (e_cond_err e) = false /\ memn m (e_cond_true e) = true)) ->
    cancelled x = false ->
    A m x (set_cond x true (interrupt_registered x) (run_count x)).
  Hypothesis H_enter : forall m x, En m ->
    (started x = true \/ (negb (completed x) && n_thr (nd p m) && negb (forced x) && memn m (e_thr_wait e)) = false) ->
    A m x (set_started x true).
  Hypothesis H_blank_idle : forall m x, n_kind (nd p m) = KBlank true -> A m x (set_started x false).
  Hypothesis H_blank_start : forall m x, n_kind (nd p m) = KBlank false -> A m x (set_started x true).
  Hypothesis H_reset : forall a m x, (n_kind (nd p a) = KAlarm \/ exists nm, n_kind (nd p a) = KMacro nm) ->
    (m = a \/ In m (descendants p a)) -> A m x (reset_one x (n_kind (nd p m))).
  Hypothesis En_all : forall n, En n.

  Definition okS (s s' : S) : Prop := forall m, A m (st s m) (st s' m).
  Definition out_state (o : outcome) : S := match o with Yield _ _ s' => s' | Go _ s' => s' | Raise _ s' => s' end.

  Lemma A_nupd f s m x x' : nupd p e f s m x x' -> A m x x'.
  Proof.
    intros U. destruct U.
    - apply H_completed.
    - apply H_failed.
    - apply H_kids.
    - apply H_lock.
    - apply H_unlock. now right.
    - eapply H_trans; [apply H_unlock; now left|]. eapply H_trans; [apply H_kids|apply H_completed].
    - apply H_wait.
    - eapply H_trans; [apply H_completed|apply H_wait].
    - apply H_cond_keep.
    - now apply H_activate.
    - apply H_enter; [apply En_all|assumption].
    - now apply H_blank_idle.
    - now apply H_blank_start.
    - now apply (H_reset a).
  Qed.
  Lemma step_ok b f k s : okS s (out_state (step p e b f k s)).
  Proof. exact (node_step p e A H_refl H_trans H_end f b k s (A_nupd f)). Qed.
  Theorem tick_ok rounds fuel main s main' s' raised :
    tick p rounds fuel e main s = Some (main', s', raised) -> okS s s'.
  Proof.
    exact (node_tick p e A H_refl H_trans H_end A_nupd rounds fuel main s main' s' raised).
  Qed.
End Fields.
