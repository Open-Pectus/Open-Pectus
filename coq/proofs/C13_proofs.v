(* C13, engine-core part: set_error_state pauses the run; the trace only grows (every primitive appends to it); an
   interpreter error is routed to set_error_state within its tick (the two phases of the tick); Stop stays accepted. *)
From Coq Require Import ZArith List Bool Arith.
From OP Require Import lib.Obs model.Eng model.EngRun model.C13 proofs.Eng_nf proofs.Eng_prims.
Import ListNotations.
Open Scope Z_scope.

Section C13.
  Variable safe : list (option Z).
  Variable overlaps : list (list nat).

  Lemma error_state_law e :
    let e' := set_error_state e in
    paused e' = true /\ m_err e' = true /\ last_err e' = true /\ sys e' = Paused /\ started e' = started e
    /\ trace e' = trace e ++ [EError].
  Proof. cbv zeta. repeat split. Qed.

  Lemma prim_trace e e' : prim safe e e' -> exists l, trace e' = trace e ++ l.
  Proof.
    intros P. destruct P; autorewrite with eng_nf; try (exists []; symmetry; apply app_nil_r); try (eexists [_]; reflexivity).
    - (* P_write *)
      destruct (write_image_cases e) as [->|[_ [[_ ->]|[_ [_ ->]]]]]; [exists []; symmetry; apply app_nil_r| |];
        eexists [_]; reflexivity.
    - (* P_stop *)
      destruct (stop_core_cases safe e) as [->|[->|[_ ->]]]; rewrite stop_pre_eq; [eexists [_]|eexists [_; _]|eexists [_; _]];
        cbn [stop_flags hw_write set_error_state upd_flags set_sys set_err set_io emit trace]; rewrite <- ?app_assoc; reflexivity.
  Qed.

  Lemma star_trace e e' : star safe e e' -> exists l, trace e' = trace e ++ l.
  Proof.
    induction 1 as [e|e1 e2 e3 P S IH]; [exists []; now rewrite app_nil_r|].
    destruct (prim_trace _ _ P) as [l1 H1]. destruct IH as [l2 H2]. exists (l1 ++ l2). now rewrite H2, H1, app_assoc.
  Qed.

  Lemma trace_only_grows ops e : exists l, trace (fold_left (fun e o => fst (step safe overlaps e o)) ops e) = trace e ++ l.
  Proof.
    apply star_trace, (invariant_by_prims safe overlaps (star safe e)); [intros e1 e2; apply star_snoc|apply star_refl].
  Qed.

  (* first hypothesis: the interpreter runs in this tick *)
  Lemma interp_error_routed e i :
    let e0 := set_now e (t_time i) (t_write_ok i) in
    interp_runs (if t_read_ok i then e0 else if last_err e0 then e0 else set_error_state e0) = true ->
    t_interp_raises i = true ->
    exists l1 l2, trace (tick safe overlaps e i) = trace e ++ l1 ++ [EError] ++ l2.
  Proof.
    cbv zeta. intros Hr Hx. rewrite tick_phases.
    destruct (star_trace _ _ (tick_post_star safe overlaps _ _ i (star_refl safe (tick_pre e i)))) as [l2 ->].
    unfold tick_pre. cbv zeta. rewrite Hr, Hx.
    destruct (star_trace _ _ (tick_interp_star safe _ _ i (tick_read_star safe _ e i (star_refl safe e)))) as [l1 H1].
    exists l1, l2. cbn [set_error_state emit set_sys upd_flags set_err trace]. rewrite H1. now rewrite <- !app_assoc.
  Qed.

  Lemma stop_valid_when_paused e : sys e = Paused -> validate e Stop = true.
  Proof. intros H. unfold validate. rewrite H. reflexivity. Qed.

  (* Paused: when the image write of Stop's second tick fails *)
  Lemma stop_ends_run e : sys (stop_core safe e) = Stopped \/ sys (stop_core safe e) = Paused.
  Proof. destruct (stop_core_cases safe e) as [->|[->|[_ ->]]]; rewrite stop_pre_eq; [left|left|right]; reflexivity. Qed.
End C13.
