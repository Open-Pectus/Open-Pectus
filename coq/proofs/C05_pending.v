(* C05: no Watch / Alarm of an ended block stays in the interrupt map -- after every tick of every run of the
   interpreter model (with the /repo fix: _register_interrupt refuses a node inside an ended block). *)
From Coq Require Import ZArith List Bool Arith Lia.
From OP Require Import lib.Obs lib.ListFacts model.Interp model.InterpRun model.C05 proofs.Interp_base proofs.Interp_inv proofs.Interp_eff.
Import ListNotations.
Open Scope Z_scope.

Section Pending.
  Variable p : program.

  (* parent pointers and child lists describe the same tree: a node lies among the descendants of each of its block
     ancestors (decidable; the check evaluates it on every generated method) *)
  Notation tree_ok_b := (C05.tree_ok_b p).
  Definition tree : Prop := forall i b, In b (ancestors p i) -> is_block p b = true -> In i (descendants p b).

  Lemma ancestors_out i : (length p <= i)%nat -> ancestors p i = [].
  Proof.
    intros G. unfold ancestors. destruct (length p) as [|f] eqn:E; [reflexivity|]. cbn [ancestors_fuel].
    rewrite nd_overflow by lia. reflexivity.
  Qed.
  Lemma tree_ok_tree : tree_ok_b = true -> tree.
  Proof.
    intros T i b A B. destruct (Nat.lt_ge_cases i (length p)) as [L|G]; [|rewrite ancestors_out in A by exact G; destruct A].
    assert (Hi : In i (seq 0 (length p))) by (apply in_seq; lia).
    apply (proj1 (forallb2_forall _ _ _) T i b Hi) in A. rewrite B in A. now apply memn_In.
  Qed.

  Definition I (s : S) : Prop := forall x, In x (ints s) -> in_ended_block p s (fst x) = false.

  Definition no_new (s s' : S) : Prop :=
    (forall a, block_ended (st s' a) = true -> block_ended (st s a) = true)
    /\ (forall x, In x (ints s') -> exists y, In y (ints s) /\ fst y = fst x).
  Lemma no_new_refl s : no_new s s. Proof. split; [auto|]. intros x H. now exists x. Qed.
  Lemma no_new_trans a b c : no_new a b -> no_new b c -> no_new a c.
  Proof.
    intros [E1 K1] [E2 K2]. split; [auto|]. intros x H. destruct (K2 x H) as [y [Hy Fy]]. destruct (K1 y Hy) as [z [Hz Fz]].
    exists z. split; [exact Hz|congruence].
  Qed.

  Lemma ended_mono s s' n : (forall a, block_ended (st s' a) = true -> block_ended (st s a) = true) ->
    in_ended_block p s n = false -> in_ended_block p s' n = false.
  Proof.
    intros E H. apply not_true_is_false. intros X. apply in_ended_block_iff in X as [a [Ha [B En]]].
    assert (Y : in_ended_block p s n = true) by (apply in_ended_block_iff; exists a; auto). congruence.
  Qed.
  Lemma I_no_new s s' : no_new s s' -> I s -> I s'.
  Proof.
    intros [E K] H x Hx. destruct (K x Hx) as [y [Hy Fy]]. rewrite <- Fy. eapply ended_mono; [exact E|]. now apply H.
  Qed.

  Lemma no_new_same s s' : nodes s' = nodes s -> ints s' = ints s -> no_new s s'.
  Proof. intros N J. split; [intros a; unfold st; now rewrite N|]. intros x H. rewrite J in H. now exists x. Qed.
  Lemma no_new_set_ns s n x : (block_ended x = true -> block_ended (st s n) = true) -> no_new s (set_ns s n x).
  Proof.
    intros H. split; [|intros y Hy; now exists y].
    apply (set_ns_rel (fun _ y y' => block_ended y' = true -> block_ended y = true)); [intros a; exact id|exact H].
  Qed.
  Lemma no_new_keys s l sr : (forall x, In x l -> exists y, In y (ints s) /\ fst y = fst x) -> no_new s (with_ints s l sr).
  Proof. intros H. split; [auto|exact H]. Qed.

  Lemma no_new_del s n : no_new s (with_ints s (del_int (ints s) n) (serial s)).
  Proof. apply no_new_keys. intros x Hx. apply del_int_In in Hx as [Hx _]. now exists x. Qed.
  Lemma nupd_ended e f s n x x' : nupd p e f s n x x' -> block_ended x' = true -> block_ended x = true.
  Proof. intros U. destruct U; cbn; auto. (* u_reset *) destruct (n_kind (nd p n)); cbn; auto; discriminate. Qed.

  Lemma write_back_keys l n sr k x : In x (write_back l n sr k) -> exists y, In y l /\ fst y = fst x.
  Proof.
    intros H. apply write_back_entry in H as [H|[k0 [H _]]]; eexists; (split; [exact H|reflexivity]).
  Qed.

  Lemma I_put s n g sr : I s -> in_ended_block p s n = false -> I (with_ints s (put_int (ints s) n g) sr).
  Proof. intros H G x Hx. cbn [ints with_ints] in Hx. apply put_int_In in Hx as [Hx| ->]; [exact (H x Hx)|exact G]. Qed.
  Lemma I_register s n : I s -> I (register_interrupt p s n).
  Proof.
    intros H. unfold register_interrupt. destruct (in_ended_block p s n) eqn:G; [exact H|].
    eapply I_no_new; [|apply I_put; [exact H|exact G]]. apply no_new_set_ns. cbn. exact id.
  Qed.

  (* the step of the fold in abort_block_interrupts, D the descendants of the block that ends *)
  Section Abort.
    Variable D : list nat.
    Definition abort_f (s : S) (x : nat * (nat * stack)) : S :=
      if memn (fst x) D
      then unregister_interrupt (set_ns s (fst x) (set_kids (st s (fst x)) (child_index (st s (fst x))) true)) (fst x)
      else s.
    Lemma abort_f_no_new s x : no_new s (abort_f s x).
    Proof.
      unfold abort_f, unregister_interrupt. destruct (memn (fst x) D); [|apply no_new_refl].
      set (s1 := set_ns s (fst x) _). set (s2 := set_ns s1 (fst x) _).
      apply (no_new_trans s s1); [apply no_new_set_ns; cbn; exact id|]. apply (no_new_trans s1 s2); [apply no_new_set_ns; cbn; exact id|apply no_new_del].
    Qed.
    Lemma abort_f_ints s x y : In y (ints (abort_f s x)) -> In y (ints s) /\ (fst y = fst x -> memn (fst y) D = false).
    Proof.
      unfold abort_f. destruct (memn (fst x) D) eqn:M.
      - unfold unregister_interrupt. cbn [with_ints ints set_ns]. intros H. apply del_int_In in H as [H N]. split; [exact H|]. intros F. congruence.
      - intros H. split; [exact H|]. intros F. now rewrite F.
    Qed.
    Lemma abort_fold_ints L : forall s y, In y (ints (fold_left abort_f L s)) ->
      In y (ints s) /\ (In (fst y) (map fst L) -> memn (fst y) D = false).
    Proof.
      induction L as [|x L IH]; intros s y H; cbn [fold_left] in H; [split; [exact H|intros []]|].
      destruct (IH _ _ H) as [H1 H2]. apply abort_f_ints in H1 as [H1 H3]. split; [exact H1|].
      cbn [map]. intros [F|F]; [apply H3; now symmetry|now apply H2].
    Qed.
  End Abort.

  Hypothesis T : tree.

  Lemma I_end_block s b : I s -> I (end_block p s b).
  Proof.
    intros H. unfold end_block, abort_block_interrupts. set (s0 := set_ns s b _).
    change (fun (s1 : S) (x : nat * (nat * stack)) => if memn (fst x) (descendants p b) then _ else s1) with (abort_f (descendants p b)).
    intros y Hy. pose proof (abort_fold_ints (descendants p b) (ints s0) s0 y Hy) as [Y1 Y2].
    assert (ND : memn (fst y) (descendants p b) = false) by (apply Y2; now apply in_map).
    pose proof (fold_left_rel no_new _ no_new_refl no_new_trans (abort_f_no_new (descendants p b)) (ints s0) s0) as [E _].
    apply not_true_is_false. intros X. apply in_ended_block_iff in X as [a [Ha [B En]]]. apply E in En.
    destruct (st_set_ns_cases s b (set_block (st s b) (lock_acquired (st s b)) true) a) as [Eq|[-> _]].
    - assert (Z : in_ended_block p s (fst y) = true) by (apply in_ended_block_iff; exists a; rewrite <- Eq; auto).
      rewrite (H y Y1) in Z. discriminate.
    - pose proof (T _ _ Ha B) as In_d. apply memn_In in In_d. congruence.
  Qed.

  Lemma I_step e b f k s : I s -> outcome_ok I (step p e b f k s).
  Proof.
    intros H. apply outcome_ok_of_state.
    refine (eff_rel p e f (fun a c => I a -> I c) _ _ _ s _ (step_eff p e b f k s) H); [intros s0; exact id|intros a0 b0 c0 H1 H2 Ha; auto|].
    intros s0 s1 [s2 n x U|s2 s3 N J _|s2 n _ G|s2 n|s2 nm n _ _|s2 b0].
    - (* e_node *) apply I_no_new, no_new_set_ns. exact (nupd_ended e f s2 n _ x U).
    - (* e_aux *) apply I_no_new. now apply no_new_same.
    - (* e_put *) intros H0. now apply I_put.
    - (* e_del *) apply I_no_new, no_new_del.
    - (* e_mput *) apply I_no_new. now apply no_new_same.
    - (* e_end *) apply I_end_block.
  Qed.

  Lemma I_init : I (init p). Proof. intros x []. Qed.

  Definition pending_ok (v : view) : Prop := no_pending_in_ended p v = true.
  Lemma I_view s raised : I s -> pending_ok (view_of s raised).
  Proof.
    intros H. unfold pending_ok, no_pending_in_ended, view_of. cbn [v_ints]. apply forallb_forall. intros i Hi.
    apply in_map_iff in Hi as [x [Fx Hx]]. subst i. apply negb_true_iff. exact (H x Hx).
  Qed.

  Theorem no_pending_always ts : forall main s now, I s -> Forall pending_ok (run_ticks p main s now ts).
  Proof.
    apply (run_views_P p I).
    - intros e b f k s H. now apply I_step.
    - intros s n H. apply (I_no_new (set_ns s n (set_failed (st s n) true))); [now apply no_new_same|].
      apply (I_no_new s); [apply no_new_set_ns; cbn; exact id|exact H].
    - intros s n sr k H. apply (I_no_new s); [|exact H]. apply no_new_keys. intros x Hx. now apply write_back_keys in Hx.
    - intros s n H. destruct (mark_completed_cases s n) as [->| ->]; [exact H|]. apply (I_no_new s); [apply no_new_set_ns; cbn; exact id|exact H].
    - intros s H. apply (I_no_new s); [now apply no_new_same|exact H].
    - intros s raised H. now apply I_view.
  Qed.
End Pending.
