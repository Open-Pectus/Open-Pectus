(* C41: after every tick of every run the macro registry holds, per entry, a Macro definition node carrying the entry's
   name (so the call dispatch's fallback branch is dead: a registered, non-recursive call always runs the children of a
   definition of the called name); the registry changes only when a definition line is executed. *)
From Coq Require Import ZArith List Bool Arith Lia.
From OP Require Import lib.Obs model.Interp model.InterpRun proofs.Interp_inv proofs.Interp_base proofs.Interp_eff.
Import ListNotations.
Open Scope Z_scope.

Section Registry.
  Variable p : program.

  Definition entry_ok (x : nat * nat) : Prop := n_kind (nd p (snd x)) = KMacro (fst x).
  Definition reg_wf (l : list (nat * nat)) : Prop := Forall entry_ok l.
  Definition reg_ok (s : S) : Prop := reg_wf (macros s).

  Lemma reg_wf_put l nm m : n_kind (nd p m) = KMacro nm -> reg_wf l -> reg_wf (macro_put l nm m).
  Proof.
    intros K W. induction W as [|[k m0] l H W IH]; cbn [macro_put]; [constructor; [exact K|constructor]|].
    destruct (Nat.eqb k nm) eqn:E.
    - apply Nat.eqb_eq in E. subst k. constructor; [exact K|exact W].
    - constructor; [exact H|exact IH].
  Qed.
  Lemma reg_wf_lookup l nm m : reg_wf l -> macro_lookup l nm = Some m -> n_kind (nd p m) = KMacro nm.
  Proof.
    intros W. induction W as [|[k m0] l H W IH]; cbn [macro_lookup]; [discriminate|].
    destruct (Nat.eqb k nm) eqn:E; [|exact IH]. apply Nat.eqb_eq in E. subst k. intros X. inversion X; subst. exact H.
  Qed.

  Lemma m_set_ns s n x : macros (set_ns s n x) = macros s. Proof. reflexivity. Qed.
  Lemma m_with_ints s i sr : macros (with_ints s i sr) = macros s. Proof. reflexivity. Qed.
  Lemma m_with_tag s t : macros (with_tag s t) = macros s. Proof. reflexivity. Qed.
  Lemma m_add_mark s n : macros (add_mark s n) = macros s. Proof. reflexivity. Qed.
  Lemma m_add_sched s : macros (add_sched s) = macros s. Proof. reflexivity. Qed.
  Lemma m_set_error s n : macros (set_error s n) = macros s. Proof. reflexivity. Qed.
  Lemma m_complete s n : macros (complete s n) = macros s. Proof. reflexivity. Qed.
  Lemma m_fold {B} (f : S -> B -> S) : (forall s a, macros (f s a) = macros s) -> forall l s, macros (fold_left f l s) = macros s.
  Proof. intros H. induction l as [|a l IH]; intros s; cbn [fold_left]; [reflexivity|]. now rewrite IH, H. Qed.
  Lemma m_register s n : macros (register_interrupt p s n) = macros s.
  Proof. unfold register_interrupt. now destruct (in_ended_block p s n). Qed.
  Lemma m_unregister s n : macros (unregister_interrupt s n) = macros s. Proof. reflexivity. Qed.
  Lemma m_abort s b : macros (abort_block_interrupts p s b) = macros s.
  Proof. unfold abort_block_interrupts. apply m_fold. intros s0 x. now destruct (memn (fst x) (descendants p b)). Qed.
  Lemma m_end_block s b : macros (end_block p s b) = macros s.
  Proof. unfold end_block. now rewrite m_abort. Qed.
  Lemma m_end_blocks l s : macros (fold_left (end_block p) l s) = macros s.
  Proof. apply m_fold. intros. apply m_end_block. Qed.
  Lemma m_reset_tree s a : macros (reset_tree p s a) = macros s.
  Proof. unfold reset_tree. apply m_fold. reflexivity. Qed.

  Definition out_state (o : outcome) : S := match o with Yield _ _ s' => s' | Go _ s' => s' | Raise _ s' => s' end.

  Definition reg_step (f : frame) (s s' : S) : Prop :=
    macros s' = macros s
    \/ exists nm n, f = FNodeTick n /\ n_kind (nd p n) = KMacro nm /\ interrupt_registered (st s n) = false
                    /\ macros s' = macro_put (macros s) nm n.

  Lemma eff_macros e f s s' : eff p e f s s' -> macros s' = macros s \/ exists nm n, f = FNodeTick n /\ n_kind (nd p n) = KMacro nm.
  Proof.
    apply (eff_rel_fine p e f (fun a c => macros c = macros a \/ exists nm n, f = FNodeTick n /\ n_kind (nd p n) = KMacro nm)).
    - intros s0. now left.
    - intros a b c [H1|H1] [H2|H2]; auto. left. congruence.
    - intros s0 n x _. now left.
    - intros s0 b. now left.
    - intros s0 s1 _ _ M. now left.
    - intros s0 n _ _. now left.
    - intros s0 n. now left.
    - intros s0 nm n F K. right. eauto.
  Qed.
  Lemma step_reg e b f k s : reg_step f s (out_state (step p e b f k s)).
  Proof.
    destruct (eff_macros e f s _ (step_eff p e b f k s)) as [M|[nm [n [-> K]]]]; [now left|].
    cbn [step]. unfold dispatch. rewrite K. destruct (interrupt_registered (st s n)) eqn:R; [now left|].
    right. exists nm, n. auto.
  Qed.

  Lemma reg_step_wf f s s' : reg_step f s s' -> reg_ok s -> reg_ok s'.
  Proof. unfold reg_ok. intros [R|[nm [n [_ [K [_ R]]]]]] H; rewrite R; [exact H|now apply reg_wf_put]. Qed.
  Lemma reg_ok_step e b f k s : reg_ok s -> outcome_ok reg_ok (step p e b f k s).
  Proof. intros H. apply outcome_ok_of_state. exact (reg_step_wf f s _ (step_reg e b f k s) H). Qed.

  Theorem registry_wf_always ts : forall main s now, reg_ok s -> Forall reg_ok (states p main s now ts).
  Proof.
    apply (run_P p reg_ok).
    - intros e b f k s H. now apply reg_ok_step.
    - intros s n H. exact H.
    - intros s n sr k H. exact H.
    - intros s n H. destruct (mark_completed_cases s n) as [->| ->]; exact H.
    - intros s H. exact H.
  Qed.

  Theorem call_runs_registered_definition e b n nm k s : reg_ok s -> n_kind (nd p n) = KCallMacro nm ->
    dispatch p e b n k s = Raise k s
    \/ exists m s1, macro_lookup (macros s) nm = Some m /\ n_kind (nd p m) = KMacro nm
                    /\ dispatch p e b n k s = Go (FKidsEntry m :: FCallAfter n m :: k) s1.
  Proof.
    intros H K. unfold dispatch. rewrite K. destruct (macro_lookup (macros s) nm) as [m|] eqn:L; [|now left].
    destruct (would_recurse p s nm m); [now left|]. pose proof (reg_wf_lookup _ _ _ H L) as Km. rewrite Km.
    right. eexists m, _. split; [reflexivity|]. split; [exact Km|reflexivity].
  Qed.
End Registry.
