(* C05: the locked blocks form one nested chain -- after every tick of every run of the interpreter model. *)
From Coq Require Import ZArith List Bool Arith Lia.
From OP Require Import lib.Obs model.Interp model.InterpRun proofs.Interp_base proofs.Interp_inv proofs.Interp_eff.
Import ListNotations.
Open Scope Z_scope.

Section Locks.
  Variable p : program.
  Definition has_lock (s : S) (m : nat) : bool := lock_acquired (st s m).

  Definition keeps_lock (g : ns -> ns) : Prop := forall x, lock_acquired (g x) = lock_acquired x.
  Lemma kl_started b : keeps_lock (fun x => set_started x b). Proof. intros x. reflexivity. Qed.
  Lemma kl_completed b : keeps_lock (fun x => set_completed x b). Proof. intros x. reflexivity. Qed.
  Lemma kl_failed b : keeps_lock (fun x => set_failed x b). Proof. intros x. reflexivity. Qed.
  Lemma kl_kids a b : keeps_lock (fun x => set_kids x a b). Proof. intros x. reflexivity. Qed.
  Lemma kl_cond a b c : keeps_lock (fun x => set_cond x a b c). Proof. intros x. reflexivity. Qed.
  Lemma kl_wait w : keeps_lock (fun x => set_wait x w). Proof. intros x. reflexivity. Qed.

  Definition nested (a b : nat) : Prop := a = b \/ In a (ancestors p b) \/ In b (ancestors p a).
  (* blocks of the method tree; blocks of injected snippets are not seen by get_locked_blocks (C14) *)
  Definition Chain (s : S) : Prop :=
    forall a b, is_block p a = true -> is_block p b = true -> in_method p a = true -> in_method p b = true ->
                has_lock s a = true -> has_lock s b = true -> nested a b.

  Lemma is_block_lt b : is_block p b = true -> (b < length p)%nat.
  Proof. intros H. apply Nat.nle_gt. intros G. unfold is_block in H. rewrite (nd_overflow p b G) in H. discriminate. Qed.
  Lemma in_locked s b : is_block p b = true -> in_method p b = true -> has_lock s b = true -> In b (locked_blocks p s).
  Proof.
    intros B M L. unfold locked_blocks. rewrite <- in_rev. apply filter_In. split.
    - apply in_seq. pose proof (is_block_lt b B). lia.
    - unfold has_lock in L. now rewrite B, M, L.
  Qed.

  Lemma Chain_set_ns s n x : (lock_acquired x = true -> has_lock s n = true \/ can_lock p s n = true) -> Chain s -> Chain (set_ns s n x).
  Proof.
    intros L C a b Ba Bb Ma Mb La Lb.
    assert (Old : forall m, has_lock (set_ns s n x) m = true -> has_lock s m = true \/ (m = n /\ can_lock p s n = true)).
    { intros m Lm. unfold has_lock in *. destruct (st_set_ns_cases s n x m) as [E|[-> E]]; rewrite E in Lm; [now left|]. destruct (L Lm); auto. }
    assert (Anc : forall m, is_block p m = true -> in_method p m = true -> has_lock s m = true -> can_lock p s n = true -> In m (ancestors p n)).
    { intros m Bm Mm Lm CL. unfold can_lock in CL. rewrite forallb_forall in CL. apply memn_In, CL. now apply in_locked. }
    destruct (Old a La) as [La'|[-> CL]], (Old b Lb) as [Lb'|[-> CL']].
    - now apply C.
    - right. left. now apply Anc.
    - right. right. now apply Anc.
    - now left.
  Qed.
  Lemma Chain_upd s n g : keeps_lock g -> Chain s -> Chain (set_ns s n (g (st s n))).
  Proof. intros K. apply Chain_set_ns. rewrite K. now left. Qed.
  Lemma Chain_same s s' : nodes s' = nodes s -> Chain s -> Chain s'.
  Proof. intros N C a b Ba Bb Ma Mb. unfold has_lock, st. rewrite N. now apply C. Qed.

  Lemma nupd_lock e f s n x x' : nupd p e f s n x x' -> lock_acquired x' = true -> lock_acquired x = true \/ can_lock p s n = true.
  Proof.
    intros U. destruct U; cbn; auto.
    - (* u_unlock *) discriminate.
    - (* u_release *) discriminate.
    - (* u_reset *) destruct (n_kind (nd p n)); cbn; auto; discriminate.
  Qed.

  Lemma Chain_step e b f k s : Chain s -> outcome_ok Chain (step p e b f k s).
  Proof.
    intros C. apply outcome_ok_of_state.
    refine (eff_rel_nodes p e f (fun a c => Chain a -> Chain c) _ _ _ _ Chain_same s _ (step_eff p e b f k s) C).
    - intros s0. exact id.
    - intros a0 b0 c0 H1 H2 Ca. auto.
    - intros s0 n x U. apply Chain_set_ns. exact (nupd_lock e f s0 n _ x U).
    - intros s0 n. apply Chain_set_ns. cbn. now left.
  Qed.

  Lemma Chain_init : Chain (init p).
  Proof.
    intros a b _ _ _ _ La _. unfold has_lock in La. rewrite st_init in La. discriminate.
  Qed.

  Theorem Chain_always ts : forall main s now, Chain s -> Forall Chain (states p main s now ts).
  Proof.
    apply run_P.
    - intros e b f k s H. now apply Chain_step.
    - intros s n H. apply (Chain_same (set_ns s n (set_failed (st s n) true))); [reflexivity|].
      apply (Chain_upd s n (fun x => set_failed x true)); [apply kl_failed|exact H].
    - intros s n sr k H. now apply (Chain_same s).
    - intros s n H. destruct (mark_completed_cases s n) as [->| ->]; [exact H|].
      apply (Chain_upd s n (fun x => set_completed x true)); [apply kl_completed|exact H].
    - intros s H. now apply (Chain_same s).
  Qed.
End Locks.
