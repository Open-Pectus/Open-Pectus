(* The engine model's composite state changes without their lets and matches: each body as one nest of record updates
   of the state before, each conditional one as the list of its outcomes.  A projection of such a nest computes by
   `cbn [<updates> <projection>]`; proofs about the bodies rewrite with these equations instead of unfolding the bodies
   and destructing their scrutinees. *)
From Coq Require Import ZArith List Bool Arith.
From OP Require Import lib.Obs model.Eng.
Import ListNotations.
Open Scope Z_scope.

Lemma iname_eqb_eq a b : iname_eqb a b = true <-> a = b.
Proof. destruct a, b; cbn; split; intros; try reflexivity; try discriminate. Qed.
Lemma iname_eqb_refl n : iname_eqb n n = true.
Proof. now apply iname_eqb_eq. Qed.
Lemma find_i_spec e n c : find_i e n = Some c -> In c (reg e) /\ i_name c = n.
Proof. unfold find_i. intros H. apply find_some in H as [H1 H2]. apply iname_eqb_eq in H2. auto. Qed.
Lemma sys_eqb_false a b : sys_eqb a b = false -> a <> b.
Proof. intros H K. subst. destruct b; discriminate. Qed.

Section Nf.
  Variable safe : list (option Z).

  Lemma apply_safe_eq e :
    apply_safe safe e = (set_io e (prev e) (snd (safe_from 0 safe (outs e))) (hw e), fst (safe_from 0 safe (outs e))).
  Proof. unfold apply_safe. now destruct (safe_from 0 safe (outs e)). Qed.

  Definition hw_write (e : E) : E := emit (set_io e (prev e) (outs e) (map Some (outs e))) (EHwWrite (outs e)).

  Lemma write_image_cases e :
    write_image e = e
    \/ started e = true /\ (wok e = true /\ write_image e = hw_write e
                            \/ wok e = false /\ last_err e = false /\ write_image e = set_error_state e).
  Proof. unfold write_image, hw_write. destruct (started e), (wok e), (last_err e); cbn; auto 6. Qed.

  Lemma boot_eq e : boot safe e = hw_write (set_io e (prev e) (snd (safe_from 0 safe (outs e))) (hw e)).
  Proof. unfold boot. now rewrite apply_safe_eq. Qed.

  Lemma set_io_id e : set_io e (prev e) (outs e) (hw e) = e.
  Proof. now destruct e. Qed.

  Lemma unpause_body_eq e :
    unpause_body e =
    set_clk (set_io (set_sys (upd_flags (emit e (EUnpause (prev e))) (started e) false (holding e) (stopping e))
                             (if holding e then Holding else Running))
                    None (match prev e with Some cap => apply_state (outs e) cap | None => outs e end) (hw e))
            (ptime e) (rtime e) (btime e) (stime e) false (root_on e).
  Proof.
    unfold unpause_body. cbv zeta. set (e2 := set_sys _ _).
    change (prev e2) with (prev e). destruct (prev e) eqn:P; [reflexivity|].
    rewrite <- (set_io_id e2) at 1. change (prev e2) with (prev e). now rewrite P.
  Qed.

  Lemma unhold_body_eq e :
    unhold_body e = set_sys (upd_flags e (started e) (paused e) false (stopping e)) (if paused e then sys e else Running).
  Proof. unfold unhold_body. now destruct (paused e). Qed.

  Lemma hold_begin_eq e :
    hold_begin e = set_sys (upd_flags e (started e) (paused e) true (stopping e)) (if paused e then sys e else Holding).
  Proof. unfold hold_begin. now destruct (paused e). Qed.

  Definition stored (e : E) : list (nat * Z) :=
    match prev e with None => fst (safe_from 0 safe (outs e)) | Some p => p end.

  Lemma pause_begin_eq e :
    pause_begin safe e =
    set_clk (emit (set_io (set_sys (upd_flags e (started e) true (holding e) (stopping e)) Paused)
                          (Some (stored e)) (snd (safe_from 0 safe (outs e))) (hw e))
                  (EPause (paused e) (stored e)))
            (ptime e) (rtime e) (btime e) (stime e) true (root_on e).
  Proof. unfold pause_begin. cbv zeta. rewrite apply_safe_eq. reflexivity. Qed.

  Lemma stop_pre_eq e :
    stop_pre safe e =
    emit (set_run (set_sys (set_trk (set_io (set_err (upd_flags e (started e) false false false) false (last_err e))
                                            None (snd (safe_from 0 safe (outs e))) (hw e)) false) Stopped)
                  None (next_run e)) EStoppedRun.
  Proof. unfold stop_pre. rewrite apply_safe_eq. reflexivity. Qed.

  Lemma stop_core_cases e :
    let e1 := stop_pre safe e in
    stop_core safe e = stop_flags e1 \/ stop_core safe e = stop_flags (hw_write e1)
    \/ wok e = false /\ stop_core safe e = stop_flags (set_error_state e1).
  Proof.
    cbv zeta. unfold stop_core. destruct (write_image_cases (stop_pre safe e)) as [->|[_ [[_ ->]|[W [_ ->]]]]]; auto.
    right. right. split; [|reflexivity]. rewrite stop_pre_eq in W. exact W.
  Qed.

  Lemma advance_clocks_eq e dt :
    let run := sys_eqb (sys e) Running in
    let go := negb (bpaused e) && run in
    advance_clocks e dt =
    set_scope (set_clk e (if run then ptime e + dt else ptime e)
                         (if sys_eqb (sys e) Stopped || sys_eqb (sys e) Restarting then rtime e else rtime e + dt)
                         (if go then (if root_on e then btime e + dt else 0) else btime e)
                         (if go then (if s_on e then sT e + dt else 0) else stime e)
                         (if go then false else bpaused e) (root_on e))
              (if go && s_on e then sT e + dt else sT e) (s_on e).
  Proof.
    cbv zeta. unfold advance_clocks. destruct (bpaused e) eqn:B, (sys_eqb (sys e) Running), (s_on e) eqn:S;
      cbn [negb andb orb]; try reflexivity; unfold set_scope, set_clk; cbn; now rewrite ?B, ?S.
  Qed.

  Lemma update_clocks_eq e dt :
    let e' := advance_clocks e dt in
    update_clocks e dt =
    emit (set_scope (set_clk e (ptime e') (rtime e') (btime e') (stime e') (bpaused e') (root_on e')) (sT e') (s_on e'))
         (EClock (sys e) dt (clocks e) (clocks e')).
  Proof. cbv zeta. unfold update_clocks, advance_clocks. cbv zeta. now destruct (bpaused e || _). Qed.

  Lemma note_cancel_m_cases e m r : note_cancel_m e m r = e \/ note_cancel_m e m r = add_creq e (r_id r).
  Proof.
    destruct m; [now left|]. unfold note_cancel_m, note_cancel.
    destruct (r_name r) as [[]|]; auto; destruct (trk e); auto.
  Qed.

  Lemma mark_done_cases e m r :
    fst (mark_done e m r) = e \/ exists d, fst (mark_done e m r) = set_mgr e (exe e) d (que e) (restart_pending e).
  Proof. unfold mark_done. destruct (existsb _ _); [|now left]. destruct m as [[x d]|]; [now left|right; eexists; reflexivity]. Qed.

  Lemma cancel_unstarted_eq e m r :
    let e1 := fst (mark_done e m r) in
    let m1 := snd (mark_done e m r) in
    cancel_unstarted e m r = (if mark_cancelled_raises (tk e1 m1) r then e1 else note_cancel_m e1 m1 r, m1).
  Proof. cbv zeta. unfold cancel_unstarted. destruct (mark_done e m r). now destruct (mark_cancelled_raises _ _). Qed.
End Nf.
