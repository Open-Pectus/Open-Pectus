(* C21: proofs about the comparison model. *)
From Coq Require Import ZArith QArith List Bool Arith Lia.
From OP Require Import lib.Obs gen.Units model.C21.
Import ListNotations.
Open Scope Q_scope.

Lemma comparable_sym a b : comparable a b = comparable b a.
Proof.
  destruct a as [x|], b as [y|]; cbn [comparable]; try reflexivity.
  rewrite (Nat.eqb_sym x y), (Nat.eqb_sym (quantity x) (quantity y)), (orb_comm (memn y (compat x))). reflexivity.
Qed.

Lemma affine_compare x y f o : 0 < f -> Qcompare (x * f + o) (y * f + o) = Qcompare x y.
Proof.
  intros Hf. destruct (Qcompare_spec x y) as [E|L|G].
  - apply Qeq_alt. now rewrite E.
  - apply Qlt_alt. apply Qplus_lt_l. now apply Qmult_lt_compat_r.
  - apply Qgt_alt. apply Qplus_lt_l. now apply Qmult_lt_compat_r.
Qed.

Lemma same_unit_comparable c : same_unit c = true -> comparable (c_ua c) (c_ub c) = true.
Proof. unfold same_unit, comparable. destruct (c_ua c), (c_ub c); try easy. now intros ->. Qed.

(* b' is the decimal compare_values holds against a: b itself, or b as pint converted it *)
Lemma compare_exact c b' : 0 < c_fa c -> val b' * c_fa c + c_oa c == phys_b c -> six_of (cmp (c_a c) b') = spec c.
Proof. intros Hf E. unfold spec, cmp, phys_a. now rewrite <- E, affine_compare. Qed.

Theorem same_unit_exact c :
  same_unit c = true -> 0 < c_fa c -> c_fb c == c_fa c -> c_ob c == c_oa c ->
  compare_all c = spec c.
Proof.
  intros Hs Hf Ef Eo. unfold compare_all. rewrite (same_unit_comparable c Hs), Hs. cbn [negb].
  apply compare_exact; [exact Hf|]. unfold phys_b. now rewrite Ef, Eo.
Qed.

Theorem exact_conversion_gives_spec c :
  comparable (c_ua c) (c_ub c) = true -> same_unit c = false -> c_dim_ok c = true ->
  0 < c_fa c ->
  val (c_b_in_a c) * c_fa c + c_oa c == phys_b c ->
  compare_all c = spec c.
Proof. intros Hc Hs Hd Hfa Eb. unfold compare_all. rewrite Hc, Hs, Hd. now apply compare_exact. Qed.

Lemma six_of_laws k :
  let s := six_of k in
  ((r_lt s = RT /\ r_eq s = RF /\ r_gt s = RF) \/ (r_lt s = RF /\ r_eq s = RT /\ r_gt s = RF) \/ (r_lt s = RF /\ r_eq s = RF /\ r_gt s = RT))
  /\ (r_ne s = RT <-> r_eq s = RF)
  /\ (r_le s = RT <-> r_lt s = RT \/ r_eq s = RT)
  /\ (r_ge s = RT <-> r_gt s = RT \/ r_eq s = RT).
Proof.
  destruct k; cbn; intuition discriminate.
Qed.

Theorem compare_all_consistent c : compare_all c = all_raise \/ exists k, compare_all c = six_of k.
Proof.
  unfold compare_all. destruct (negb (comparable _ _)); [now left|]. destruct (same_unit c); [right; eauto|].
  destruct (negb (c_dim_ok c)); [now left|right; eauto].
Qed.

(* the laws the property names hold of the physical comparison, hence of compare_values whenever it equals it *)
Lemma spec_laws c :
  let s := spec c in
  ((r_lt s = RT /\ r_eq s = RF /\ r_gt s = RF) \/ (r_lt s = RF /\ r_eq s = RT /\ r_gt s = RF) \/ (r_lt s = RF /\ r_eq s = RF /\ r_gt s = RT))
  /\ (r_ne s = RT <-> r_eq s = RF)
  /\ (r_le s = RT <-> r_lt s = RT \/ r_eq s = RT)
  /\ (r_ge s = RT <-> r_gt s = RT \/ r_eq s = RT).
Proof. exact (six_of_laws _). Qed.

Lemma res_eqb_refl r : res_eqb r r = true.
Proof. now destruct r. Qed.

Lemma six_eqb_refl s : six_eqb s s = true.
Proof. unfold six_eqb. now rewrite !res_eqb_refl. Qed.

Lemma monitor_accepts_model c :
  holds_b (ICmp c) (OCmp (spec c)) = true.
Proof. cbn [holds_b]. destruct (comparable _ _ && _); [apply six_eqb_refl|reflexivity]. Qed.
