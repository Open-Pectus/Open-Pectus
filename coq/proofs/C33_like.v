(* Supports the modelling decision "topics.contains(topic) is list membership": SQLite executes
   topics LIKE '%' || '"<topic>"' || '%'  on the JSON text of the list, where `_` in the pattern
   matches any character. The pattern begins and ends with a quote, so a matching window neither
   begins nor ends on a bracket or in a separator ", ", and no topic's pattern matches a separator
   with its inside (separator_table, evaluated): the window lies within one item
   (like_contains_join), and there only the topic itself matches (item_table, evaluated). *)
From Coq Require Import ZArith List Bool Arith.
From OP Require Import lib.Obs gen.Topics.
Import ListNotations.
Open Scope Z_scope.

Definition quote : Z := 34. Definition underscore : Z := 95. Definition percent : Z := 37.
Definition quoted (n : list Z) : list Z := quote :: n ++ [quote].

Fixpoint join (items : list (list Z)) : list Z :=
  match items with
  | [] => []
  | [x] => x
  | x :: rest => x ++ [44; 32] ++ join rest            (* ", " as json.dumps writes it *)
  end.
Definition json_text (names : list (list Z)) : list Z := 91 :: join (map quoted names) ++ [93].

(* LIKE pattern character match: `_` any one character; `%` does not occur in topic names *)
Fixpoint prefix_match (pat text : list Z) : bool :=
  match pat, text with
  | [], _ => true
  | p :: pat', c :: text' => ((p =? underscore) || (p =? c)) && prefix_match pat' text'
  | _ :: _, [] => false
  end.
Fixpoint like_contains (pat text : list Z) : bool :=
  prefix_match pat text || match text with [] => false | _ :: text' => like_contains pat text' end.

Definition idxs := seq 0 topic_count.
Definition lists_upto3 : list (list nat) :=
  [[]] ++ map (fun a => [a]) idxs ++ flat_map (fun a => map (fun b => [a; b]) idxs) idxs
  ++ flat_map (fun a => flat_map (fun b => map (fun c => [a; b; c]) idxs) idxs) idxs.
Definition name_of (i : nat) : list Z := nth i topic_names [].

Definition check_one (t : nat) (l : list nat) : bool :=
  Bool.eqb (like_contains (quoted (name_of t)) (json_text (map name_of l))) (existsb (Nat.eqb t) l).

Lemma prefix_match_mono p : forall u c, prefix_match p u = true -> prefix_match p (u ++ c) = true.
Proof.
  induction p as [|k p IH]; intros [|d u] c H; simpl in *; try easy.
  apply andb_true_iff in H as [-> H]. now apply IH.
Qed.

Lemma like_contains_app p c : forall u, like_contains p u = true -> like_contains p (u ++ c) = true.
Proof.
  destruct p as [|k p]; [now destruct u, c|].
  induction u as [|d u IH]; simpl; intros H; [easy|].
  apply orb_true_iff in H as [H|H]; apply orb_true_iff; [left | right; now apply IH].
  now apply (prefix_match_mono (k :: p) (d :: u)).
Qed.

(* pat matches all of text and goes on *)
Fixpoint overrun (pat text : list Z) : bool :=
  match pat, text with
  | [], _ => false
  | _ :: _, [] => true
  | p :: pat', c :: text' => ((p =? underscore) || (p =? c)) && overrun pat' text'
  end.
(* so does some suffix of pat *)
Fixpoint overruns (pat text : list Z) : bool :=
  overrun pat text || match pat with [] => false | _ :: pat' => overruns pat' text end.

Lemma prefix_match_app p : forall u c, overrun p u = false ->
  prefix_match p (u ++ c) = prefix_match p u.
Proof.
  induction p as [|k p IH]; intros [|d u] c H; simpl in *; try easy.
  destruct ((k =? underscore) || (k =? d)); [now apply IH | easy].
Qed.

Lemma overrun_app b : forall a p, overruns p b = false -> overrun p (a ++ b) = false.
Proof.
  induction a as [|d a IH]; intros [|k p] H; try easy; apply orb_false_iff in H as [H1 H2].
  - exact H1.
  - simpl. rewrite IH by exact H2. apply andb_false_r.
Qed.

(* A window that lies neither in a ++ b nor in b ++ c covers b and more on both sides: a proper
   suffix of p overruns b. *)
Lemma like_contains_split p a b c : overruns (tl p) b = false ->
  like_contains p (a ++ b ++ c) = like_contains p (a ++ b) || like_contains p (b ++ c).
Proof.
  intros H. induction a as [|d a IH]; simpl.
  - destruct (like_contains p b) eqn:E; [|easy]. now apply like_contains_app.
  - rewrite IH, orb_assoc. do 2 f_equal. destruct p as [|k p]; [easy|]. simpl. f_equal.
    rewrite app_assoc. now apply prefix_match_app, overrun_app.
Qed.

Lemma like_contains_first n d u : (quote =? d) = false ->
  like_contains (quoted n) (d :: u) = like_contains (quoted n) u.
Proof. intros H. unfold quoted. cbn [like_contains prefix_match]. now rewrite H. Qed.

Lemma prefix_match_last q d : (q =? underscore) || (q =? d) = false ->
  forall p u, prefix_match (p ++ [q]) (u ++ [d]) = prefix_match (p ++ [q]) u.
Proof.
  intros H. induction p as [|k p IH]; intros [|e u]; simpl; rewrite ?H, ?IH; try easy.
  destruct p; apply andb_false_r.
Qed.

Lemma like_contains_last n d : (quote =? d) = false ->
  forall u, like_contains (quoted n) (u ++ [d]) = like_contains (quoted n) u.
Proof.
  intros H u. change (quoted n) with ((quote :: n) ++ [quote]).
  induction u as [|e u IH]; cbn [app like_contains].
  - exact (f_equal2 orb (prefix_match_last quote d H (quote :: n) []) eq_refl).
  - exact (f_equal2 orb (prefix_match_last quote d H (quote :: n) (e :: u)) IH).
Qed.

Lemma like_contains_join n : overruns (tl (quoted n)) [44; 32] = false ->
  forall items, like_contains (quoted n) (join items) = existsb (like_contains (quoted n)) items.
Proof.
  intros H. induction items as [|x [|y items] IH]; [easy | apply eq_sym, orb_false_r |].
  change (join (x :: y :: items)) with (x ++ [44; 32] ++ join (y :: items)).
  rewrite like_contains_split by exact H. cbn [app]. rewrite !like_contains_first, IH by easy.
  replace (x ++ [44; 32]) with ((x ++ [44]) ++ [32]) by now rewrite <- app_assoc.
  now rewrite !like_contains_last.
Qed.

Lemma separator_table t : In t idxs -> overruns (tl (quoted (name_of t))) [44; 32] = false.
Proof.
  intros Ht. apply negb_true_iff. revert t Ht. apply forallb_forall. vm_compute. reflexivity.
Qed.

Lemma item_table t i : In t idxs -> In i idxs ->
  like_contains (quoted (name_of t)) (quoted (name_of i)) = (t =? i)%nat.
Proof.
  intros Ht Hi. apply eqb_prop. revert i Hi. apply forallb_forall. revert t Ht.
  apply forallb_forall. vm_compute. reflexivity.
Qed.

Theorem contains_is_membership t l : In t idxs -> incl l idxs ->
  like_contains (quoted (name_of t)) (json_text (map name_of l)) = existsb (Nat.eqb t) l.
Proof.
  intros Ht Hl. unfold json_text.
  rewrite like_contains_first, like_contains_last, like_contains_join by auto using separator_table.
  induction l as [|i l IH]; [easy|]. apply incl_cons_inv in Hl as [Hi Hl].
  cbn [map existsb]. now rewrite IH, item_table.
Qed.

Lemma lists_upto3_range l : In l lists_upto3 -> incl l idxs.
Proof.
  intros Hl i Hi. apply in_seq. split; [apply Nat.le_0_l|]. apply Nat.ltb_lt. revert i Hi.
  apply forallb_forall. revert l Hl. apply forallb_forall. vm_compute. reflexivity.
Qed.

Lemma contains_is_membership_upto3 :
  forallb (fun t => forallb (check_one t) lists_upto3) idxs = true.
Proof.
  apply forallb_forall; intros t Ht. apply forallb_forall; intros l Hl.
  now apply eqb_true_iff, contains_is_membership, lists_upto3_range.
Qed.

Lemma no_percent_in_topic_names :
  forallb (fun n => negb (existsb (Z.eqb percent) n)) topic_names = true.
Proof. vm_compute. reflexivity. Qed.
