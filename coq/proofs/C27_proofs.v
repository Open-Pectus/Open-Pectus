(* C27: proofs about the model of EngineRunner's recovery state machine. One invariant (Good) is carried through every
   helper of the model, together with "no accounted message is dropped" (carries). *)
From Coq Require Import ZArith List Bool Arith Lia.
From OP Require Import lib.Obs lib.ListFacts model.C27.
Import ListNotations.
Open Scope Z_scope.

Definition sending (s : rstate) : bool := match s with Connected | Reconnected | CatchingUp => true | _ => false end.
Definition has_id (s : rstate) : bool := match s with Connected | Reconnected | CatchingUp | Reconnecting => true | _ => false end.
Definition steady (s : rstate) : bool := match s with Connected | Reconnected => true | _ => false end.
Definition up (s : rstate) : bool := match s with Started | Stopped => false | _ => true end.
Definition quiet (s : rstate) : bool := match s with Started | Connected | Reconnected => true | _ => false end.

Lemma post_eq r m rs : post r m rs =
  if sending (st r) then
    let '(r1, m1, failed, rs') := send r m rs in if failed then (buffer (set_failed r1) m1, rs') else (r1, rs')
  else if up (st r) then (buffer r m, rs) else (r, rs).
Proof. unfold post. destruct (st r); reflexivity. Qed.

Definition stamped (n : nat) (m : msg) : Prop := exists k, mseq m = Some k /\ (k <= n)%nat.
Definition seq_bounded (n : nat) (m : msg) : Prop := forall k, mseq m = Some k -> (k <= n)%nat.

Lemma stamped_mono n n' m : (n <= n')%nat -> stamped n m -> stamped n' m.
Proof. intros H [k [A B]]. exists k. split; [exact A|lia]. Qed.
Lemma stamped_all_mono n n' l : (n <= n')%nat -> Forall (stamped n) l -> Forall (stamped n') l.
Proof. intros H. apply Forall_impl. intros m. now apply stamped_mono. Qed.
Lemma stamped_bounded n m : stamped n m -> seq_bounded n m.
Proof. intros [k [A B]] k' A'. rewrite A in A'. now injection A' as <-. Qed.
Lemma fresh_bounded n m : mseq m = None -> seq_bounded n m.
Proof. intros H k A. congruence. Qed.

Record Good (r : R) : Prop := {
  g_eid : has_id (st r) = true -> eid r = true;             (* a transmission always has an engine id *)
  g_quiet : quiet (st r) = true -> buf r = [] /\ tk r <> TBuf;
  g_crash : crashed r = false;
  g_seq : Forall (stamped (seqn r)) (buf r) }.

Lemma loop_alive r : Good r -> tk r = TBuf -> quiet (st r) = false.
Proof. intros G T. destruct (quiet (st r)) eqn:E; [|reflexivity]. now destruct (g_quiet r G E). Qed.

Lemma Good_buf r : Good r -> steady (st r) = true -> buf r = [].
Proof. intros G H. apply (g_quiet r G). destruct (st r); try discriminate H; reflexivity. Qed.
Lemma Good_tk r : Good r -> tk r = TBuf -> steady (st r) = false.
Proof. intros G T. apply (loop_alive r G) in T. destruct (st r); try discriminate T; reflexivity. Qed.

Definition lab_in (l : Z) (r : R) : Prop := In l (map fst (out r)) \/ In l (map label (buf r)).
Definition keeps (r r' : R) : Prop := forall l, lab_in l r -> lab_in l r'.
Lemma keeps_trans a b c : keeps a b -> keeps b c -> keeps a c.
Proof. intros H1 H2 l H. auto. Qed.
Lemma keeps_incl r r' : incl (out r) (out r') -> incl (buf r) (buf r') -> keeps r r'.
Proof. intros Ho Hb l [H|H]; [left|right]; eapply incl_map; eauto. Qed.

Record carries (r r' : R) : Prop := { c_good : Good r'; c_keeps : keeps r r'; c_seqn : (seqn r <= seqn r')%nat }.
Lemma carries_trans a b c : carries a b -> carries b c -> carries a c.
Proof. intros [A1 A2 A3] [B1 B2 B3]. split; [exact B1|exact (keeps_trans _ _ _ A2 B2)|lia]. Qed.
Lemma Good_carries r r' : Good r' -> out r' = out r -> buf r' = buf r -> seqn r' = seqn r -> carries r r'.
Proof.
  intros G Ho Hb Hn. split; [exact G| |now rewrite Hn]. apply keeps_incl; [rewrite Ho|rewrite Hb]; apply incl_refl.
Qed.
Lemma carries_refl r : Good r -> carries r r.
Proof. intros G. now apply Good_carries. Qed.

Record frame (r r' : R) : Prop := {
  f_st : st r' = st r; f_buf : buf r' = buf r; f_tk : tk r' = tk r; f_eid : eid r' = eid r;
  f_crash : crashed r' = crashed r; f_out : incl (out r) (out r'); f_seq : (seqn r <= seqn r')%nat }.

Lemma frame_carries r r' : Good r -> frame r r' -> carries r r'.
Proof.
  intros [A Q C D] [Fs Fb Ft Fe Fc Fo Fn].
  refine {| c_good := {| g_eid := _; g_quiet := _; g_crash := _; g_seq := _ |}; c_keeps := _; c_seqn := Fn |}.
  - rewrite Fs, Fe. exact A.
  - rewrite Fs, Fb, Ft. exact Q.
  - rewrite Fc. exact C.
  - rewrite Fb. exact (stamped_all_mono _ _ _ Fn D).
  - apply keeps_incl; [exact Fo|rewrite Fb; apply incl_refl].
Qed.

Lemma stamp_spec r m : seq_bounded (seqn r) m ->
  frame r (fst (stamp r m)) /\ label (snd (stamp r m)) = label m /\ stamped (seqn (fst (stamp r m))) (snd (stamp r m)).
Proof.
  intros Hm. unfold stamp. destruct (mseq m) as [k|] eqn:E; cbn [fst snd].
  - split; [split; auto using incl_refl|split; [reflexivity|exists k; auto]].
  - split; [split; cbn; auto using incl_refl|split; [reflexivity|exists (S (seqn r)); cbn; auto]].
Qed.

Lemma set_failed_facts r :
  st (set_failed r) = Failed /\ buf (set_failed r) = buf r /\ seqn (set_failed r) = seqn r /\ out (set_failed r) = out r
  /\ crashed (set_failed r) = crashed r.
Proof. repeat split. Qed.

Lemma send_spec r m rs r1 m1 failed rs' : eid r = true -> seq_bounded (seqn r) m -> send r m rs = (r1, m1, failed, rs') ->
  frame r r1 /\ label m1 = label m /\ stamped (seqn r1) m1 /\ (failed = false -> In (label m) (map fst (out r1))).
Proof.
  intros He Hm. unfold send. rewrite He. cbn [negb]. destruct (stamp_spec r m Hm) as [[Fs Fb Ft Fe Fc Fo Fn] [L S]].
  destruct (stamp r m) as [r0 m0]. cbn [fst snd] in *. destruct (next rs) as [x rs0].
  intros H. injection H as <- <- <- <-. split; [|split; [exact L|split]].
  - destruct x; split; cbn; auto using incl_appl.
  - destruct x; exact S.
  - destruct x; try discriminate. intros _. cbn. rewrite map_app, in_app_iff. right. left. exact L.
Qed.

Lemma buffer_spec r m : Good r -> quiet (st r) = false -> seq_bounded (seqn r) m ->
  carries r (buffer r m) /\ st (buffer r m) = st r /\ buf (buffer r m) <> [] /\ lab_in (label m) (buffer r m).
Proof.
  intros G Hq Hm. destruct (stamp_spec r m Hm) as [F [L S]]. unfold buffer. destruct (stamp r m) as [r1 m1]. cbn [fst snd] in *.
  destruct (frame_carries r r1 G F) as [[A Q C D] K N]. rewrite <- (f_st _ _ F) in Hq.
  split; [|split; [exact (f_st _ _ F)|split]].
  - refine {| c_good := {| g_eid := _; g_quiet := _; g_crash := _; g_seq := _ |}; c_keeps := _; c_seqn := _ |};
      cbn [st buf eid crashed seqn].
    + exact A.
    + rewrite Hq. discriminate.
    + exact C.
    + apply Forall_app. split; [exact D|constructor; [exact S|constructor]].
    + apply (keeps_trans _ _ _ K). apply keeps_incl; [apply incl_refl|apply incl_appl, incl_refl].
    + exact N.
  - cbn [buf]. intros H. apply app_eq_nil in H as [_ H]. discriminate.
  - right. cbn [buf]. rewrite map_app, in_app_iff. right. left. exact L.
Qed.

Lemma set_failed_carries r : Good r -> carries r (set_failed r).
Proof. intros [A Q C D]. apply Good_carries; [|reflexivity..]. split; cbn; try assumption; discriminate. Qed.

Record post_ok (r r' : R) : Prop := {
  p_carries : carries r r';
  p_state : st r' = st r \/ (st r' = Failed /\ buf r' <> []) }.

Lemma post_ok_up r r' : post_ok r r' -> up (st r) = true -> up (st r') = true.
Proof. intros [_ [H|[H _]]] U; rewrite H; [exact U|reflexivity]. Qed.

Lemma post_spec r m rs : Good r -> seq_bounded (seqn r) m ->
  post_ok r (fst (post r m rs)) /\ (up (st r) = true -> lab_in (label m) (fst (post r m rs))).
Proof.
  intros G Hm. rewrite post_eq. destruct (sending (st r)) eqn:Es; [|destruct (up (st r)) eqn:Eu]; cbn [fst].
  - assert (He : eid r = true) by (apply (g_eid r G); destruct (st r); try discriminate Es; reflexivity).
    destruct (send r m rs) as [[[r1 m1] failed] rs'] eqn:E.
    destruct (send_spec _ _ _ _ _ _ _ He Hm E) as [F [L [S O]]]. pose proof (frame_carries r r1 G F) as Q1.
    destruct failed; cbn [fst].
    + pose proof (set_failed_carries r1 (c_good _ _ Q1)) as Q2.
      destruct (buffer_spec (set_failed r1) m1 (c_good _ _ Q2) eq_refl (stamped_bounded _ _ S)) as [Q3 [B1 [B2 B3]]].
      split; [exact {| p_carries := carries_trans _ _ _ Q1 (carries_trans _ _ _ Q2 Q3);
                       p_state := or_intror (conj B1 B2) |}|].
      intros _. rewrite <- L. exact B3.
    + split; [exact {| p_carries := Q1; p_state := or_introl (f_st _ _ F) |}|]. intros _. left. now apply O.
  - assert (Hq : quiet (st r) = false) by (destruct (st r); try discriminate Es; try discriminate Eu; reflexivity).
    destruct (buffer_spec r m G Hq Hm) as [Q [B1 [_ B3]]].
    split; [exact {| p_carries := Q; p_state := or_introl B1 |}|intros _; exact B3].
  - split; [exact {| p_carries := carries_refl r G; p_state := or_introl eq_refl |}|discriminate].
Qed.

Lemma post_all_spec ms : forall r rs, Good r -> up (st r) = true -> Forall (stamped (seqn r)) ms ->
  carries r (fst (post_all r ms rs)) /\ (forall m, In m ms -> lab_in (label m) (fst (post_all r ms rs))).
Proof.
  induction ms as [|m ms IH]; intros r rs G U F; cbn [post_all].
  - split; [now apply carries_refl|intros m []].
  - inversion F as [|? ? Fm Fms]; subst.
    destruct (post_spec r m rs G (stamped_bounded _ _ Fm)) as [P L]. destruct (post r m rs) as [r1 rs1]. cbn [fst] in P, L.
    pose proof (p_carries _ _ P) as Q1.
    destruct (IH r1 rs1 (c_good _ _ Q1) (post_ok_up _ _ P U) (stamped_all_mono _ _ _ (c_seqn _ _ Q1) Fms)) as [Q LL].
    split; [exact (carries_trans _ _ _ Q1 Q)|]. intros m0 [<-|Hin]; [apply (c_keeps _ _ Q); now apply L|now apply LL].
Qed.

Lemma with_state_carries r s : Good r -> (has_id s = true -> eid r = true) -> (quiet s = true -> buf r = []) ->
  carries r (with_state r s).
Proof.
  intros [A Q C D] He Hb. apply Good_carries; [|reflexivity..]. split; cbn; try assumption.
  intros H. split; [now apply Hb|]. destruct s; try discriminate H; destruct (tk r); discriminate.
Qed.

Lemma start_steady_carries r : Good r -> carries r (start_steady r).
Proof.
  intros G. unfold start_steady. destruct (tk r) eqn:Et; try now apply carries_refl.
  destruct G as [A Q C D]. apply Good_carries; [|reflexivity..]. split; cbn; try assumption.
  intros H. split; [now apply Q|discriminate].
Qed.

Lemma set_state_spec r s rs : Good r -> (has_id s = true -> eid r = true) -> (quiet s = true -> buf r = []) ->
  carries r (fst (set_state r s rs)).
Proof.
  intros G He Hb. pose proof (with_state_carries r s G He Hb) as W.
  destruct s; cbn [set_state fst]; try exact W.
  - destruct (post_spec (with_state r Connected) (fresh (-1) KOther) rs (c_good _ _ W)) as [[P _] _]; [now apply fresh_bounded|].
    destruct (post (with_state r Connected) (fresh (-1) KOther) rs) as [r1 rs1]. cbn [fst] in *.
    exact (carries_trans _ _ _ W (carries_trans _ _ _ P (start_steady_carries r1 (c_good _ _ P)))).
  - now apply set_failed_carries.
  - destruct (post_spec (with_state r CatchingUp) (fresh (-1) KOther) rs (c_good _ _ W)) as [[P _] _]; [now apply fresh_bounded|].
    exact (carries_trans _ _ _ W P).
  - exact (carries_trans _ _ _ W (start_steady_carries _ (c_good _ _ W))).
Qed.

Lemma set_eid_carries r : Good r ->
  carries r {| st := st r; buf := buf r; seqn := seqn r; tk := tk r; eid := true; out := out r; crashed := crashed r |}.
Proof. intros [A Q C D]. apply Good_carries; [|reflexivity..]. split; cbn; auto. Qed.

Lemma connect_spec r rs : Good r -> carries r (fst (connect r rs)).
Proof.
  intros G. unfold connect. destruct (next rs) as [x rs'].
  destruct x; try (apply set_state_spec; [exact G|discriminate|discriminate]).
  pose proof (set_eid_carries r G) as E. apply (carries_trans _ _ _ E). apply c_good in E.
  destruct (st r) eqn:Es; try now apply carries_refl.
  - apply set_state_spec; [exact E|reflexivity|]. intros _. apply (g_quiet r G). now rewrite Es.
  - apply set_state_spec; [exact E|reflexivity|discriminate].
Qed.

Lemma Good_clear_buf r : Good r ->
  Good {| st := st r; buf := []; seqn := seqn r; tk := tk r; eid := eid r; out := out r; crashed := crashed r |}.
Proof. intros [A Q C D]. split; cbn; auto. intros H. split; [reflexivity|now apply Q]. Qed.

Lemma batch_spec r rs : Good r -> st r = CatchingUp -> carries r (fst (batch r rs)).
Proof.
  intros G Hst. unfold batch.
  destruct (post_spec r (fresh (-2) KOther) rs G) as [P _]; [now apply fresh_bounded|].
  destruct (post r (fresh (-2) KOther) rs) as [r1 rs1]. cbn [fst] in P.
  pose proof (p_carries _ _ P) as Q1. pose proof (c_good _ _ Q1) as G1. apply (carries_trans _ _ _ Q1).
  destruct (buf r1) as [|m ms] eqn:Eb.
  - (* all caught up: the post was transmitted, so the state is still CatchingUp *)
    apply set_state_spec; [exact G1| |intros _; exact Eb].
    intros _. apply (g_eid r1 G1). destruct (p_state _ _ P) as [H|[_ H]]; [now rewrite H, Hst|contradiction].
  - set (r2 := {| st := st r1; buf := []; seqn := seqn r1; tk := tk r1; eid := eid r1; out := out r1; crashed := crashed r1 |}).
    assert (F2 : Forall (stamped (seqn r2)) (m :: ms)) by (rewrite <- Eb; exact (g_seq r1 G1)).
    assert (U2 : up (st r2) = true) by (apply (post_ok_up _ _ P); now rewrite Hst).
    destruct (post_all_spec (m :: ms) r2 rs1 (Good_clear_buf r1 G1) U2 F2) as [[Q2 K2 N2] LL].
    split; [exact Q2| |exact N2].
    intros l [H|H]; [apply K2; left; exact H|]. rewrite Eb in H. apply in_map_iff in H as [m0 [<- Hin]]. now apply LL.
Qed.

Lemma tick_spec r rs : Good r -> carries r (fst (tick r rs)).
Proof.
  intros G. unfold tick. destruct (st r) eqn:Es; try now apply carries_refl.
  - now apply connect_spec.
  - apply set_state_spec; [exact G|discriminate|discriminate].
  - now apply connect_spec.
  - apply set_state_spec; [exact G| |discriminate]. intros _. apply (g_eid r G). now rewrite Es.
  - now apply batch_spec.
Qed.

Lemma Good_clear_out r : Good r -> Good (clear_out r).
Proof. intros [A Q C D]. split; cbn; auto. Qed.

Lemma step_spec r o : Good r -> carries (clear_out r) (step r o).
Proof.
  intros G. apply Good_clear_out in G. unfold step. destruct o as [l run k rs|l run k|rs].
  - apply p_carries, post_spec; [exact G|now apply fresh_bounded].
  - destruct (tk (clear_out r)) eqn:Et; try now apply carries_refl.
    apply buffer_spec; [exact G|now apply loop_alive|now apply fresh_bounded].
  - now apply tick_spec.
Qed.

Theorem Good_step r o : Good r -> Good (step r o).
Proof. intros G. exact (c_good _ _ (step_spec r o G)). Qed.

Lemma Good_init : Good init.
Proof. split; cbn; try discriminate; auto. intros _. split; [reflexivity|discriminate]. Qed.

Theorem Good_reachable ops : Good (fold_left step ops init).
Proof. exact (fold_left_inv Good step Good_step ops init Good_init). Qed.

Theorem accepted_not_lost r l run k rs : Good r -> up (st r) = true ->
  lab_in l (step r (OPost l run k rs)).
Proof.
  intros G U. apply Good_clear_out in G.
  apply (post_spec (clear_out r) {| label := l; mseq := None; mrun := run; mkd := k |} rs G); [now apply fresh_bounded|exact U].
Qed.

Theorem buffered_by_loop_not_lost r l run k : Good r -> tk r = TBuf -> lab_in l (step r (OBuf l run k)).
Proof.
  intros G T. apply Good_clear_out in G. unfold step. cbn [clear_out tk]. rewrite T.
  apply (buffer_spec (clear_out r) {| label := l; mseq := None; mrun := run; mkd := k |}); [exact G| |now apply fresh_bounded].
  now apply loop_alive.
Qed.

Theorem buffered_stays_or_goes_out r o m : Good r -> In m (buf r) -> lab_in (label m) (step r o).
Proof. intros G Hin. apply (c_keeps _ _ (step_spec r o G)). right. now apply in_map. Qed.
