(* Mutual exclusion makes every interleaving equal to a serial order of whole sections (C40). *)
From Coq Require Import List Bool Arith.
From OP Require Import lib.ListFacts model.Ser.
Import ListNotations.

Section Proofs.
  Variable S : Type.
  Notation section := (section S).
  Notation cfg := (cfg S).
  Notation tstate := (tstate S).

  Lemma upd_length {A} (l : list A) i x : length (upd l i x) = length l.
  Proof. revert i; induction l as [|y l IH]; intros [|i]; cbn; auto. Qed.
  Lemma nth_upd_same {A} (l : list A) i x y : nth_error l i = Some y -> nth_error (upd l i x) i = Some x.
  Proof. revert i; induction l as [|z l IH]; intros [|i] H; cbn in *; try discriminate; auto. Qed.
  Lemma nth_error_upd_inv {A} (l : list A) i x j u :
    nth_error (upd l i x) j = Some u -> (j = i /\ u = x) \/ (j <> i /\ nth_error l j = Some u).
  Proof.
    revert i j; induction l as [|z l IH]; intros [|i] [|j] H; cbn in H; try discriminate; auto.
    - left. split; congruence.
    - destruct (IH _ _ H) as [[-> ->]|[N E]]; auto.
  Qed.

  Definition done_of (c : cfg) : list (mstep S) :=
    match holder c with
    | Some h => match nth_error (threads c) h with
                | Some t => match cur t with Some (_, d, _) => d | None => [] end
                | None => [] end
    | None => []
    end.

  Definition proj (i : nat) (h : list (nat * section)) : list section :=
    map snd (filter (fun p => Nat.eqb (fst p) i) h).

  Definition cur_list (t : tstate) : list section := match cur t with Some (sec, _, _) => [sec] | None => [] end.

  Definition thread_ok (progs : list (list section)) (h : list (nat * section)) (i : nat) (t : tstate) : Prop :=
    (forall sec d r, cur t = Some (sec, d, r) -> d ++ r = steps sec) /\
    nth_error progs i = Some (proj i h ++ cur_list t ++ todo t).

  Record Inv (s0 : S) (progs : list (list section)) (c : cfg) : Prop := {
    i_len : length (threads c) = length progs;
    i_excl : forall i t, nth_error (threads c) i = Some t -> cur t <> None -> holder c = Some i;
    i_state : state c = run_steps S (done_of c) (run_serial S s0 (map snd (hist c)));
    i_thread : forall i t, nth_error (threads c) i = Some t -> thread_ok progs (hist c) i t }.

  Lemma Inv_start s0 progs : Inv s0 progs (start S s0 progs).
  Proof.
    split; cbn.
    - apply map_length.
    - intros i t H C. apply nth_error_In, in_map_iff in H as [p [<- _]]. now elim C.
    - reflexivity.
    - intros i t H. rewrite nth_error_map in H. destruct (nth_error progs i) as [p|] eqn:E; [|discriminate].
      inversion H; subst. split; [discriminate|exact E].
  Qed.

  Lemma run_steps_app fs gs s : run_steps S (fs ++ gs) s = run_steps S gs (run_steps S fs s).
  Proof. unfold run_steps. apply fold_left_app. Qed.

  Lemma run_serial_snoc s0 l sec : run_serial S s0 (l ++ [sec]) = run_steps S (steps sec) (run_serial S s0 l).
  Proof. unfold run_serial. now rewrite fold_left_app. Qed.

  Lemma proj_snoc j h i sec : proj j (h ++ [(i, sec)]) = proj j h ++ (if Nat.eqb i j then [sec] else []).
  Proof. unfold proj. rewrite filter_app, map_app. cbn. now destruct (Nat.eqb i j). Qed.

  Lemma thread_ok_snoc progs h i sec j u : j <> i -> thread_ok progs h j u -> thread_ok progs (h ++ [(i, sec)]) j u.
  Proof.
    intros N [Sp Pr]. split; [exact Sp|]. rewrite proj_snoc.
    destruct (Nat.eqb_spec i j); [congruence|]. now rewrite app_nil_r.
  Qed.

  Lemma Inv_upd s0 progs c i t' c' :
    Inv s0 progs c -> threads c' = upd (threads c) i t' ->
    (cur t' <> None -> holder c' = Some i) ->
    (forall j, j <> i -> holder c = Some j -> holder c' = Some j) ->
    state c' = run_steps S (done_of c') (run_serial S s0 (map snd (hist c'))) ->
    thread_ok progs (hist c') i t' ->
    (hist c' = hist c \/ exists sec, hist c' = hist c ++ [(i, sec)]) ->
    Inv s0 progs c'.
  Proof.
    intros I Ht Hi Ho Hs Hti Hh. split.
    - now rewrite Ht, upd_length, (i_len _ _ _ I).
    - intros j u Hj Cj. rewrite Ht in Hj. apply nth_error_upd_inv in Hj as [[-> ->]|[N Hj]]; [exact (Hi Cj)|].
      exact (Ho j N (i_excl _ _ _ I j u Hj Cj)).
    - exact Hs.
    - intros j u Hj. rewrite Ht in Hj. apply nth_error_upd_inv in Hj as [[-> ->]|[N Hj]]; [exact Hti|].
      pose proof (i_thread _ _ _ I j u Hj) as Hu. destruct Hh as [-> |[sec ->]]; [exact Hu|now apply thread_ok_snoc].
  Qed.

  Lemma move_Inv s0 progs c i :
    (forall p sec, In p progs -> In sec p -> locked sec = true) -> Inv s0 progs c -> Inv s0 progs (move S c i).
  Proof.
    intros L I. unfold move. destruct (nth_error (threads c) i) as [t|] eqn:Et; [|exact I].
    destruct (i_thread _ _ _ I i t Et) as [Sp Pr].
    assert (Lk : forall sec, In sec (cur_list t ++ todo t) -> locked sec = true).
    { intros sec Hin. apply (L _ sec (nth_error_In _ _ Pr)), in_or_app. now right. }
    unfold cur_list in Pr, Lk. destruct (cur t) as [[[sec d] r]|] eqn:Ec.
    - assert (Hh : holder c = Some i) by (apply (i_excl _ _ _ I i t Et); congruence).
      specialize (Sp _ _ _ eq_refl). destruct r as [|f rest].
      + (* leave *)
        rewrite (Lk sec) by now left.
        eapply Inv_upd; [exact I|reflexivity|..]; cbn [threads holder state hist cur].
        * intros C. now elim C.
        * intros j N Hj. congruence.
        * unfold done_of at 1. cbn [holder]. rewrite map_last, run_serial_snoc, (i_state _ _ _ I). unfold done_of.
          rewrite Hh, Et, Ec. cbn [snd]. now rewrite <- Sp, app_nil_r.
        * split; [discriminate|]. rewrite proj_snoc, Nat.eqb_refl, <- app_assoc. exact Pr.
        * right. now exists sec.
      + (* one micro-step *)
        eapply Inv_upd; [exact I|reflexivity|..]; cbn [threads holder state hist cur].
        * intros _. exact Hh.
        * auto.
        * unfold done_of. cbn [holder threads]. rewrite Hh, (nth_upd_same _ _ _ _ Et). cbn [cur].
          rewrite run_steps_app, (i_state _ _ _ I). unfold done_of. now rewrite Hh, Et, Ec.
        * split; [|exact Pr]. intros sec' d' r' E. inversion E; subst. now rewrite <- app_assoc.
        * now left.
    - (* enter, unless blocked or finished *)
      destruct (todo t) as [|sec more] eqn:Etd; [exact I|].
      rewrite (Lk sec) by now left. unfold free. destruct (holder c) as [h|] eqn:Eh; [exact I|].
      eapply Inv_upd; [exact I|reflexivity|..]; cbn [threads holder state hist cur].
      + reflexivity.
      + intros j _ Hj. now rewrite Eh in Hj.
      + unfold done_of. cbn [holder threads]. rewrite (nth_upd_same _ _ _ _ Et). cbn [cur].
        rewrite (i_state _ _ _ I). unfold done_of. now rewrite Eh.
      + split; [|exact Pr]. intros sec' d' r' E. now inversion E.
      + now left.
  Qed.

  Lemma run_Inv s0 progs sched :
    (forall p sec, In p progs -> In sec p -> locked sec = true) -> Inv s0 progs (run S s0 progs sched).
  Proof. intros L. unfold run. apply fold_left_inv; [|apply Inv_start]. intros c i. apply move_Inv, L. Qed.

  Theorem serialisable s0 progs sched :
    (forall p sec, In p progs -> In sec p -> locked sec = true) ->
    let c := run S s0 progs sched in
    finished S c = true ->
    state c = run_serial S s0 (map snd (hist c)) /\
    forall i p, nth_error progs i = Some p -> proj i (hist c) = p.
  Proof.
    intros L c F. pose proof (run_Inv s0 progs sched L) as I. fold c in I.
    assert (Hn : forall i t, nth_error (threads c) i = Some t -> cur t = None /\ todo t = []).
    { intros i t H. unfold finished in F. rewrite forallb_forall in F. specialize (F t (nth_error_In _ _ H)).
      destruct (cur t); [discriminate|]. destruct (todo t); [auto|discriminate]. }
    split.
    - rewrite (i_state _ _ _ I). unfold done_of. destruct (holder c) as [h|]; [|reflexivity].
      destruct (nth_error (threads c) h) as [t|] eqn:Ht; [|reflexivity]. now destruct (Hn h t Ht) as [-> _].
    - intros i p Hp. destruct (nth_error (threads c) i) as [t|] eqn:Et.
      + destruct (i_thread _ _ _ I i t Et) as [_ P]. destruct (Hn i t Et) as [C T]. unfold cur_list in P.
        rewrite C, T, app_nil_r in P. congruence.
      + apply nth_error_None in Et. rewrite (i_len _ _ _ I) in Et. apply nth_error_None in Et. congruence.
  Qed.
End Proofs.

(* Without the lock the statement is false: two read-modify-write requests on one counter. *)
Definition rmw_state := (nat * nat * nat)%type.      (* shared x, local a, local b *)
Definition incr_a (lk : bool) : section rmw_state :=
  {| locked := lk; steps := [fun s => let '(x, a, b) := s in (x, x, b); fun s => let '(x, a, b) := s in (a + 1, a, b)] |}.
Definition incr_b (lk : bool) : section rmw_state :=
  {| locked := lk; steps := [fun s => let '(x, a, b) := s in (x, a, x); fun s => let '(x, a, b) := s in (b + 1, a, b)] |}.

Lemma unlocked_not_serialisable :
  let c := run rmw_state (0, 0, 0) [[incr_a false]; [incr_b false]] [0; 1; 0; 1; 0; 1; 0; 1] in
  finished rmw_state c = true /\
  fst (fst (state c)) = 1 /\
  fst (fst (run_serial rmw_state (0, 0, 0) [incr_a false; incr_b false])) = 2 /\
  fst (fst (run_serial rmw_state (0, 0, 0) [incr_b false; incr_a false])) = 2.
Proof. vm_compute. repeat split. Qed.

Lemma locked_same_schedule :
  let c := run rmw_state (0, 0, 0) [[incr_a true]; [incr_b true]] [0; 1; 0; 1; 0; 1; 0; 1; 1; 1; 1; 1] in
  finished rmw_state c = true /\ fst (fst (state c)) = 2.
Proof. vm_compute. repeat split. Qed.
