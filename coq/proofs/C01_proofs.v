(* C01: facts about the model of live edits as implemented. *)
From Coq Require Import ZArith List Bool Arith Lia.
From OP Require Import lib.Obs lib.ListFacts model.Interp model.InterpRun model.C01 proofs.Interp_base.
Import ListNotations.
Open Scope Z_scope.

Lemma rejected_changes_nothing m e m' : apply_edit m e = (m', false) -> m' = m.
Proof.
  unfold apply_edit. destruct (m_detached m); [intros H; inversion H|].
  destruct (existsb (protected (m_s m)) (e_changed e)); intros H; inversion H; reflexivity.
Qed.
(* only an attached manager validates *)
Lemma rejected_iff m e :
  snd (apply_edit m e) = false <-> m_detached m = false /\ existsb (protected (m_s m)) (e_changed e) = true.
Proof. unfold apply_edit. destruct (m_detached m); [|destruct (existsb _ _)]; cbn [snd]; intuition discriminate. Qed.
Lemma accepted_merge_detaches m e m' : m_detached m = false -> apply_edit m e = (m', true) -> m_detached m' = true.
Proof.
  intros D. unfold apply_edit. rewrite D. destruct (existsb (protected (m_s m)) (e_changed e)); intros H; inversion H; reflexivity.
Qed.

Lemma fresh_clean p omap s n : started (st (fresh p omap s) n) = false /\ completed (st (fresh p omap s) n) = false.
Proof. unfold st, fresh. cbn [nodes]. rewrite nth_repeat. split; reflexivity. Qed.
Definition clean (s : S) : Prop := forall n, started (st s n) = false /\ completed (st s n) = false.
Lemma register_clean p s i : clean s -> clean (register_interrupt p s i).
Proof.
  intros C n. destruct (st_register p s i n) as [r ->]. apply (C n).
Qed.
Theorem accepted_edit_drops_all_progress m e m' : apply_edit m e = (m', true) -> clean (m_s m').
Proof.
  unfold apply_edit. destruct (m_detached m).
  - intros H. inversion H; subst. cbn [m_s]. intros n. apply fresh_clean.
  - destruct (existsb (protected (m_s m)) (e_changed e)); [intros H; inversion H|]. intros H. inversion H; subst. cbn [m_s].
    apply (fold_left_inv clean); [|intros n; apply fresh_clean]. intros s0 x C.
    destruct (index_of_old (e_old e) (fst x)) as [i|]; [|exact C]. destruct (has_children (e_prog e) i); [now apply register_clean|exact C].
Qed.
