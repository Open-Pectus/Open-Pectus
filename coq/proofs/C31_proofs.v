(* Proofs about concurrent saves of a method under the per-engine lock (model/C31.v): one invariant, and that the
   version moves only by an accepted save. They turn on `settled`: taking the lock and handing it on, through
   any number of rejected waiters, change neither the version nor the accepted saves. *)
From Coq Require Import ZArith List Bool Arith Lia.
From OP Require Import lib.Obs lib.ListFacts model.C31.
Import ListNotations.
Open Scope Z_scope.

Fixpoint increasing (l : list Z) (bound : Z) : Prop :=
  match l with
  | [] => True
  | x :: l' => x < bound /\ (forall y, In y l' -> x < y) /\ increasing l' bound
  end.

Record Inv (s : st) : Prop := {
  inv_holder : forall i b, holder s = Some (i, b) -> version s = b;
  inv_acc : increasing (map snd (accepted s)) (version s)
}.

Lemma increasing_weaken l b b' : b <= b' -> increasing l b -> increasing l b'.
Proof. induction l as [|x l IH]; cbn; intros Hb H; [exact I|]. destruct H as [H1 [H2 H3]]. repeat split; [lia|auto|auto]. Qed.

Lemma increasing_bound l b y : increasing l b -> In y l -> y < b.
Proof. induction l as [|x l IH]; cbn; intros H Hin; [contradiction|]. destruct H as [H1 [H2 H3]]. destruct Hin as [<-|Hin]; auto. Qed.

Lemma increasing_snoc l b : increasing l b -> increasing (l ++ [b]) (b + 1).
Proof.
  induction l as [|x l IH]; cbn; intros H; [repeat split; [lia|tauto]|].
  destruct H as [H1 [H2 H3]]. repeat split; [lia| |auto].
  intros y Hy. apply in_app_or in Hy as [Hy|[<-|[]]]; [auto|exact H1].
Qed.

Definition settled (s t : st) : Prop :=
  version t = version s /\ accepted t = accepted s /\ forall i b, holder t = Some (i, b) -> version s = b.

Lemma enter_settled s i b : settled s (enter s i b).
Proof.
  unfold settled, enter. destruct (version s =? b) eqn:E; cbn; (split; [reflexivity|split; [reflexivity|]]); [|discriminate].
  intros j c [= _ <-]. now apply Z.eqb_eq.
Qed.

Lemma settled_trans a b c : settled a b -> settled b c -> settled a c.
Proof.
  intros [A1 [A2 _]] [B1 [B2 B3]]. split; [congruence|split; [congruence|]].
  intros i v Hh. rewrite <- A1. exact (B3 i v Hh).
Qed.

Lemma grant_settled q : forall s, settled s (grant s q).
Proof.
  induction q as [|[i b] q IH]; intros s; cbn [grant]; [split; [reflexivity|split; [reflexivity|discriminate]]|].
  match goal with |- context [enter ?s1 i b] => set (t := s1) end.
  assert (He : settled s (enter t i b)) by exact (enter_settled t i b).
  destruct (holder (enter t i b)); [exact He|]. exact (settled_trans _ _ _ He (IH _)).
Qed.

Lemma settled_inv s t : settled s t -> increasing (map snd (accepted s)) (version s) -> Inv t.
Proof. intros [E1 [E2 E3]] H. constructor; rewrite E1; [exact E3|now rewrite E2]. Qed.

Lemma step_inv s o : Inv s -> Inv (step s o).
Proof.
  intros HI. pose proof (inv_acc s HI) as H2. destruct o as [i b|i ok]; cbn [step].
  - destruct (holder s) as [[j bj]|] eqn:Eh.
    + constructor; cbn; [rewrite <- Eh; apply HI|exact H2].
    + exact (settled_inv _ _ (enter_settled s i b) H2).
  - destruct (holder s) as [[j base]|] eqn:Eh; [|exact HI].
    destruct (Nat.eqb i j); [|exact HI].
    destruct ok; cbn [queue]; apply (settled_inv _ _ (grant_settled _ _)); cbn [version accepted]; [|exact H2].
    rewrite map_app, <- (inv_holder s HI j base Eh). now apply increasing_snoc.
Qed.

Lemma init_inv v : Inv (init v).
Proof. constructor; cbn; [discriminate|exact I]. Qed.

Lemma reachable_inv os : forall s, Inv s -> Inv (final s os).
Proof. apply fold_left_inv, step_inv. Qed.

Lemma increasing_nodup l b : increasing l b -> NoDup l.
Proof.
  induction l as [|x l IH]; cbn; intros H; [constructor|]. destruct H as [H1 [H2 H3]].
  constructor; [|auto]. intros Hin. specialize (H2 x Hin). lia.
Qed.

Lemma step_version s o :
  (version (step s o) = version s /\ accepted (step s o) = accepted s)
  \/ (exists i b, o = Reply i true /\ holder s = Some (i, b)
                  /\ version (step s o) = b + 1 /\ accepted (step s o) = accepted s ++ [(i, b)]).
Proof.
  destruct o as [i b|i ok]; cbn [step].
  - left. destruct (holder s); [cbn; auto|]. destruct (enter_settled s i b) as [E1 [E2 _]]. auto.
  - destruct (holder s) as [[j base]|] eqn:Eh; [|left; auto].
    destruct (Nat.eqb i j) eqn:Eij; [|left; auto]. apply Nat.eqb_eq in Eij. subst j.
    destruct ok; cbn [queue]; rewrite (proj1 (grant_settled _ _)), (proj1 (proj2 (grant_settled _ _))); cbn [version accepted].
    + right. exists i, base. auto.
    + left. auto.
Qed.
