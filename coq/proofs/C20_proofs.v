(* C20: the analyzer accepts a line exactly when the line has every fact the engine needs (accepted_is_needs), read off
   the leaves of the decision tree of C19_proofs.v. *)
From Coq Require Import List Bool Arith.
From OP Require Import lib.Obs model.C19 model.C20 proofs.C19_proofs.
Import ListNotations.

Lemma unit_checks_accepted c :
  accepted (unit_checks c)
  = if c_tag_unit c then c_cond_unit c && negb (c_unit_error c) && c_comparable c else negb (c_cond_unit c).
Proof.
  unfold unit_checks. now destruct (c_tag_unit c), (c_cond_unit c), (c_rhs_is_unit c), (c_unit_error c), (c_comparable c).
Qed.

(* every leaf of the decision tree but the last reports something, and the last tests what is left of the needs *)
Lemma tagged_accepted missing l c : l = LCond c \/ l = LSim c -> missing <> DNone ->
  accepted (analyze_tagged missing c) = runtime_needs l.
Proof.
  intros L M.
  assert (E : runtime_needs l = runtime_needs (LCond c)) by (destruct L; subst l; reflexivity).
  rewrite E. unfold runtime_needs.
  destruct (analyze_tagged_leaf missing c) as [P|P B|P B D|P B D|P B D O|P B D O V|P B D O V].
  - rewrite P. destruct missing; try reflexivity; congruence.
  - rewrite P, B. reflexivity.
  - rewrite P, B, D. reflexivity.
  - rewrite P, B, D. reflexivity.
  - rewrite P, B, D, O. reflexivity.
  - rewrite P, B, D, O, V. reflexivity.
  - rewrite unit_checks_accepted, P, B, D, O, V. reflexivity.
Qed.

Theorem accepted_is_needs l : accepted (analyze l) = runtime_needs l.
Proof.
  destruct l as [c|c|o|k]; cbn [analyze].
  - apply tagged_accepted; [auto|discriminate].
  - apply tagged_accepted; [auto|discriminate].
  - unfold analyze_simoff, runtime_needs. destruct (o_blank o); [reflexivity|].
    destruct (resolve_cases (o_lookup o)) as [D|D|D]; rewrite D; reflexivity.
  - unfold analyze_command, runtime_needs.
    destruct (resolve_cases (k_lookup k)) as [D|D|D]; rewrite D; [|reflexivity..].
    destruct (k_noargs_with_arg k); [reflexivity|]. now destruct (k_args_valid k).
Qed.

Theorem accepted_has_runtime_needs l : accepted (analyze l) = true -> runtime_needs l = true.
Proof. now rewrite accepted_is_needs. Qed.

Theorem model_holds l : holds_b l (run l) = true.
Proof.
  unfold holds_b, run. cbn [fst snd]. destruct (accepted (analyze l)) eqn:A; [|reflexivity].
  rewrite (accepted_has_runtime_needs l A). reflexivity.
Qed.
