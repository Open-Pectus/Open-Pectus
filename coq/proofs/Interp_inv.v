(* Invariants of the interpreter model: a predicate on the interpreter state that every transition of every generator
   preserves holds after every tick of every run (Interp_stack.v without a condition on the stacks and without a rely). *)
From Coq Require Import ZArith List Bool Arith Lia.
From OP Require Import lib.Obs model.Interp model.InterpRun proofs.Interp_stack.
Import ListNotations.
Open Scope Z_scope.

Definition outcome_ok (P : S -> Prop) (o : outcome) : Prop :=
  match o with Yield _ _ s' => P s' | Go _ s' => P s' | Raise _ s' => P s' end.
Lemma outcome_ok_of_state (P : S -> Prop) o : P (o_state o) -> outcome_ok P o.
Proof. destruct o; exact id. Qed.

Section TransferTick.
  Variable p : program.
  Variable e : env.
  Variable P : S -> Prop.

  Hypothesis P_step : forall b f k s, P s -> outcome_ok P (step p e b f k s).
  Hypothesis P_fail : forall s n, P s -> P (set_error (set_ns s n (set_failed (st s n) true)) n).
  Hypothesis P_ints : forall s n sr k, P s -> P (with_ints s (write_back (ints s) n sr k) (serial s)).
  Hypothesis P_sched : forall s, P s -> P {| nodes := nodes s; ints := ints s; serial := serial s; last_error := last_error s;
                                             block_tag := block_tag s; scheduled := 0; marks := marks s; macros := macros s |}.

  Theorem tick_P rounds fuel main s main' s' raised :
    P s -> tick p rounds fuel e main s = Some (main', s', raised) -> P s'.
  Proof.
    intros H Tk.
    refine (proj2 (proj1 (tick_J p e P (fun _ _ => True) (fun _ _ => True) _ _ _ _ _ _ _ _ _ _ rounds fuel main s main' s' raised H I Tk))).
    (* R_refl, R_trans, F_stable, F_tail, F_nil and J_load say nothing when F and R are True *)
    1-5, 9: intros; exact I.
    - (* J_step *) intros b f k s0 H0 _. specialize (P_step b f k s0 H0). destruct (step p e b f k s0); repeat split; exact P_step.
    - (* J_fail *) intros s0 n H0. split; [exact I|now apply P_fail].
    - (* J_store *) intros s0 n sr k H0 _. split; [exact I|now apply P_ints].
    - (* J_sched *) intros s0 H0. split; [exact I|now apply P_sched].
  Qed.
End TransferTick.

Section Transfer.
  Variable p : program.
  Variable P : S -> Prop.
  Hypothesis P_step : forall e b f k s, P s -> outcome_ok P (step p e b f k s).
  Hypothesis P_fail : forall s n, P s -> P (set_error (set_ns s n (set_failed (st s n) true)) n).
  Hypothesis P_ints : forall s n sr k, P s -> P (with_ints s (write_back (ints s) n sr k) (serial s)).
  Hypothesis P_cmd : forall s n, P s -> P (mark_completed s n).
  Hypothesis P_sched : forall s, P s -> P {| nodes := nodes s; ints := ints s; serial := serial s; last_error := last_error s;
                                             block_tag := block_tag s; scheduled := 0; marks := marks s; macros := macros s |}.

  (* The states after the ticks of a run, one per tick, up to the first tick that runs out of fuel: there the list ends, as
     the list of views of InterpRun.run_ticks does (the correspondence then sees a length mismatch). Every theorem over
     states / gstates / rstates speaks of these states; nothing proves that fuel_of / rounds_of suffice. Times are in tenths
     of a second: t_dt counts half seconds, as harness/interp_driver.py advances the clock. *)
  Fixpoint states (main : stack) (s : S) (now : Z) (ts : list tick_in) : list S :=
    match ts with
    | [] => []
    | t :: ts' =>
        let s1 := fold_left (complete_cmd p) (t_complete t) s in
        let now' := now + 5 * t_dt t in
        let e := {| e_time := now'; e_thr_wait := t_thr_wait t; e_cond_true := t_cond_true t; e_cond_err := t_cond_err t |} in
        match tick p (rounds_of p) (fuel_of p) e main s1 with
        | None => []
        | Some (main', s2, _) => s2 :: states main' s2 now' ts'
        end
    end.

  Lemma states_gstates ts : forall main s now,
    states main s now ts = gstates p Empty_set (fun s _ => s) main s now (map (fun t => (t, [])) ts).
  Proof.
    induction ts as [|t ts IH]; intros main s now; cbn [states gstates map fold_left]; [reflexivity|].
    destruct (tick p (rounds_of p) (fuel_of p) _ main _) as [[[main' s2] r]|]; [|reflexivity]. now rewrite IH.
  Qed.

  Theorem run_P ts : forall main s now, P s -> Forall P (states main s now ts).
  Proof.
    intros main s now. rewrite states_gstates. apply (gstates_ind p _ _ (fun _ => True) (fun _ => P) P); auto.
    intros e k s0 k' s' r H Tk. exact (tick_P p e P (P_step e) P_fail P_ints P_sched _ _ _ _ _ _ _ H Tk).
  Qed.

  Definition view_of (s : S) (raised : bool) : view :=
    {| v_nodes := nodes s; v_ints := map fst (ints s); v_block := block_tag s; v_sched := scheduled s;
       v_raised := raised; v_error := last_error s |}.
  Lemma run_ticks_states ts : forall main s now,
    Forall2 (fun s' v => exists raised, v = view_of s' raised) (states main s now ts) (run_ticks p main s now ts).
  Proof.
    induction ts as [|t ts IH]; intros main s now; cbn [states run_ticks]; [constructor|].
    destruct (tick p (rounds_of p) (fuel_of p) _ main _) as [[[main' s2] r]|]; constructor; [now exists r|apply IH].
  Qed.
  Theorem run_views_P (Q : view -> Prop) : (forall s raised, P s -> Q (view_of s raised)) ->
    forall ts main s now, P s -> Forall Q (run_ticks p main s now ts).
  Proof.
    intros HQ ts main s now H. pose proof (run_P ts main s now H) as Hs.
    induction (run_ticks_states ts main s now) as [|s' v l l' [r ->] _ IH]; constructor.
    - apply HQ. exact (Forall_inv Hs).
    - apply IH. exact (Forall_inv_tail Hs).
  Qed.
End Transfer.
