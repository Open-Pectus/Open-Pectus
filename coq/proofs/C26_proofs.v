(* C26: the round trip decode t (encode v) = Some v for well-typed clean values, and its lift to the envelope. *)
From Coq Require Import ZArith List Bool Arith.
From OP Require Import lib.Obs lib.ListFacts model.C26.
Import ListNotations.

Section TyInd.
  Variable P : ty -> Prop.
  Hypothesis H_null : P TNull.
  Hypothesis H_bool : P TBool.
  Hypothesis H_int : P TInt.
  Hypothesis H_float : P TFloat.
  Hypothesis H_str : P TStr.
  Hypothesis H_enum : forall vals, P (TEnum vals).
  Hypothesis H_opt : forall t, P t -> P (TOpt t).
  Hypothesis H_union : forall ts, P (TUnion ts).
  Hypothesis H_list : forall t, P t -> P (TList t).
  Hypothesis H_set : forall t, P t -> P (TSet t).
  Hypothesis H_dict : forall k v, P k -> P v -> P (TDict k v).
  Hypothesis H_model : forall fs, Forall (fun ft => P (snd ft)) fs -> P (TModel fs).
  Fixpoint ty_ind' (t : ty) : P t :=
    match t with
    | TNull => H_null | TBool => H_bool | TInt => H_int | TFloat => H_float | TStr => H_str
    | TEnum vals => H_enum vals
    | TOpt t' => H_opt t' (ty_ind' t')
    | TUnion ts => H_union ts
    | TList t' => H_list t' (ty_ind' t')
    | TSet t' => H_set t' (ty_ind' t')
    | TDict k v => H_dict k v (ty_ind' k) (ty_ind' v)
    | TModel fs => H_model fs ((fix go (fs : list (nat * ty)) : Forall (fun ft => P (snd ft)) fs :=
                                  match fs with
                                  | [] => Forall_nil _
                                  | ft :: fs' => Forall_cons ft (ty_ind' (snd ft)) (go fs')
                                  end) fs)
    end.
End TyInd.

Lemma str_eqb_refl s : str_eqb s s = true.
Proof. destruct s; cbn; auto using Nat.eqb_refl, Z.eqb_refl. Qed.

Lemma scalar_rt t v : check_scalar t v = true -> decode_scalar t (encode v) = Some v.
Proof.
  destruct t, v; cbn; try discriminate; try reflexivity.
  - destruct f; try discriminate. reflexivity.
Qed.
Lemma scalar_kind_matches t v : check_scalar t v = true -> kind_matches t (encode v) = true.
Proof. destruct t, v; cbn; try discriminate; try reflexivity. destruct f; try discriminate; reflexivity. Qed.
Lemma kind_matches_same t t' j : kind_matches t j = true -> kind_matches t' j = true -> t = t'.
Proof. destruct j, t; try discriminate; destruct t'; try discriminate; reflexivity. Qed.
Lemma scalar_kind_inj t t' : is_scalar t = true -> is_scalar t' = true -> scalar_kind t = scalar_kind t' -> t = t'.
Proof. destruct t, t'; cbn; try discriminate; reflexivity. Qed.

(* smart mode finds the member a value was checked against: a JSON value is of one kind *)
Lemma find_member ts t j : In t ts -> kind_matches t j = true -> find (fun t' => kind_matches t' j) ts = Some t.
Proof. intros Hin Hk. apply find_unique; [exact Hin|exact Hk|]. intros t' _ Hk'. exact (kind_matches_same t' t j Hk' Hk). Qed.

(* a well-typed value other than None is not encoded as null *)
Lemma check_float_finite t : forall f, check t (PFloat f) = true -> exists b, f = FFin b.
Proof.
  induction t using ty_ind'; intros f C; cbn in C; try discriminate.
  - (* float *) destruct f; try discriminate. eauto.
  - (* T | None *) now apply IHt.
  - (* union of scalars *) apply andb_prop in C as [_ C]. apply existsb_exists in C as [t' [_ C]].
    destruct t'; cbn in C; try discriminate. destruct f; try discriminate. eauto.
  - (* dict *) destruct t1; discriminate.
Qed.
Lemma encode_null t v : check t v = true -> encode v = JNull -> v = PNone.
Proof.
  intros C E. destruct v; cbn in E; try discriminate; try reflexivity.
  destruct (check_float_finite t f C) as [b ->]. discriminate.
Qed.
Lemma check_opt t v : check (TOpt t) v = true -> v = PNone \/ check t v = true /\ encode v <> JNull.
Proof.
  intros C. destruct v; [now left|..]; right; (split; [exact C|]).
  all: intros E; now apply (encode_null t) in E.
Qed.
Lemma decode_opt t j : j <> JNull -> decode (TOpt t) j = decode t j.
Proof. now destruct j. Qed.

Lemma map_opt_map {A B} (f : A -> option B) (g : B -> A) l :
  Forall (fun x => f (g x) = Some x) l -> map_opt f (map g l) = Some l.
Proof. induction 1 as [|x l H _ IH]; cbn; [reflexivity|]. now rewrite H, IH. Qed.
Lemma seq_rt t l : (forall v, check t v = true -> decode t (encode v) = Some v) -> forallb (check t) l = true ->
  map_opt (decode t) (map encode l) = Some l.
Proof. intros IH C. apply map_opt_map, Forall_forall. rewrite forallb_forall in C. auto. Qed.

(* the local recursions of decode and check at a model, and the object a model is encoded as *)
Section Fields.
  Variable obj : list (str * jv).
  Fixpoint fields_of (fs : list (nat * ty)) : option (list (nat * pv)) :=
    match fs with
    | [] => Some []
    | (f, ft) :: fs' =>
        match lookup (SId f) obj with
        | Some x => match decode ft x, fields_of fs' with Some x', Some r => Some ((f, x') :: r) | _, _ => None end
        | None => None
        end
    end.
End Fields.
Fixpoint matches_of (fs : list (nat * ty)) (l : list (nat * pv)) : bool :=
  match fs, l with
  | [], [] => true
  | (f, ft) :: fs', (g, x) :: l' => Nat.eqb f g && check ft x && matches_of fs' l'
  | _, _ => false
  end.
Definition enc_fields (l : list (nat * pv)) : list (str * jv) :=
  map (fun fv => match fv with (f, x) => (SId f, encode x) end) l.

Lemma decode_model fs obj : decode (TModel fs) (JObj obj) = option_map PModel (fields_of obj fs).
Proof. reflexivity. Qed.
Lemma check_model fs l : check (TModel fs) (PModel l) = nodupb (map fst fs) && matches_of fs l.
Proof. reflexivity. Qed.
Lemma encode_model l : encode (PModel l) = JObj (enc_fields l).
Proof. reflexivity. Qed.
Lemma lookup_enc_cons f g y l extra :
  lookup (SId f) (enc_fields ((g, y) :: l) ++ extra)
  = if Nat.eqb f g then Some (encode y) else lookup (SId f) (enc_fields l ++ extra).
Proof. reflexivity. Qed.

Lemma nodupb_cons x l : nodupb (x :: l) = true -> ~ In x l /\ nodupb l = true.
Proof.
  cbn [nodupb]. intros H. apply andb_prop in H as [H N]. split; [|exact N].
  rewrite <- existsb_eqb_In. apply negb_true_iff in H. rewrite H. discriminate.
Qed.

Lemma matches_names : forall fs l, matches_of fs l = true -> map fst l = map fst fs.
Proof.
  induction fs as [|[f ft] fs IH]; intros l M; destruct l as [|[g x] l]; cbn in M; try discriminate; [reflexivity|].
  apply andb_prop in M as [M M3]. apply andb_prop in M as [M1 _]. apply Nat.eqb_eq in M1. subst g. cbn. f_equal. now apply IH.
Qed.

Lemma fields_rt obj : forall fs l,
  Forall (fun ft => forall v, check (snd ft) v = true -> decode (snd ft) (encode v) = Some v) fs ->
  matches_of fs l = true ->
  (forall f x, In (f, x) l -> lookup (SId f) obj = Some (encode x)) ->
  fields_of obj fs = Some l.
Proof.
  induction fs as [|[f ft] fs IH]; intros l D M L; destruct l as [|[g x] l]; cbn in M; try discriminate; [reflexivity|].
  apply andb_prop in M as [M M3]. apply andb_prop in M as [M1 M2]. apply Nat.eqb_eq in M1. subst g.
  cbn [fields_of]. rewrite (L f x (or_introl eq_refl)), (Forall_inv D x M2 : decode ft _ = _).
  rewrite (IH l (Forall_inv_tail D) M3); [reflexivity|].
  intros f' x' Hin. apply L. now right.
Qed.

Lemma lookup_obj extra f x l : nodupb (map fst l) = true -> In (f, x) l ->
  lookup (SId f) (enc_fields l ++ extra) = Some (encode x).
Proof.
  induction l as [|[g y] l IH]; intros N Hin; [destruct Hin|].
  cbn [map fst] in N. apply nodupb_cons in N as [N1 N]. rewrite lookup_enc_cons. destruct Hin as [E|Hin].
  - inversion E; subst. now rewrite Nat.eqb_refl.
  - destruct (Nat.eqb_spec f g) as [->|_]; [|now apply IH]. destruct N1. exact (in_map fst _ _ Hin).
Qed.

Lemma lookup_skip extra f l : existsb (Nat.eqb f) (map fst l) = false ->
  lookup (SId f) (enc_fields l ++ extra) = lookup (SId f) extra.
Proof.
  induction l as [|[g y] l IH]; intros N; [reflexivity|]. cbn [map fst existsb] in N. apply orb_false_iff in N as [N1 N].
  rewrite lookup_enc_cons, N1. now apply IH.
Qed.

(* a model is decoded from its object whatever further keys the object carries (the envelope adds _type and _ns) *)
Lemma model_rt fs l extra :
  Forall (fun ft => forall v, check (snd ft) v = true -> decode (snd ft) (encode v) = Some v) fs ->
  check (TModel fs) (PModel l) = true ->
  decode (TModel fs) (JObj (enc_fields l ++ extra)) = Some (PModel l).
Proof.
  intros D C. rewrite check_model in C. apply andb_prop in C as [N M].
  rewrite decode_model, (fields_rt _ fs l D M); [reflexivity|].
  intros f x. apply lookup_obj. now rewrite (matches_names fs l M).
Qed.

(* no side condition on the type is needed: the premise wf of the two theorems below is not used *)
Lemma check_rt t : forall v, check t v = true -> decode t (encode v) = Some v.
Proof.
  induction t using ty_ind'; intros v C.
  1-5: now apply scalar_rt.
  - (* enum *) cbn in C. destruct v; try discriminate. cbn. now rewrite C.
  - (* T | None *) destruct (check_opt t v C) as [->|[C' E]]; [reflexivity|]. rewrite decode_opt by exact E. now apply IHt.
  - (* union of scalars *) cbn [check] in C. apply andb_prop in C as [_ C]. apply existsb_exists in C as [t' [Hin Ht']].
    cbn [decode]. rewrite (find_member ts t' (encode v) Hin (scalar_kind_matches t' v Ht')). now apply scalar_rt.
  - (* list *) destruct v; try discriminate. cbn [encode decode]. now rewrite (seq_rt t l IHt C).
  - (* set *) destruct v; try discriminate. cbn [encode decode]. now rewrite (seq_rt t l IHt C).
  - (* dict with string keys *) cbn [check] in C. destruct t1; try discriminate. destruct v; try discriminate.
    cbn [encode decode].
    rewrite (map_opt_map _ (fun kv : pv * pv => match kv with (k, x) => (key_text k, encode x) end)); [reflexivity|].
    rewrite forallb_forall in C. apply Forall_forall. intros [k x] Hx. specialize (C _ Hx). cbn [fst snd] in C.
    apply andb_prop in C as [Ck Cx]. destruct k; cbn in Ck; try discriminate. cbn [key_text decode decode_scalar].
    rewrite (IHt2 x Cx). reflexivity.
  - (* model *) destruct v; try discriminate.
    rewrite encode_model, <- (app_nil_r (enc_fields l)). now apply model_rt.
Qed.

Theorem roundtrip t : forall v, wf t = true -> check t v = true -> decode t (encode v) = Some v.
Proof. intros v _. apply check_rt. Qed.

Theorem envelope_roundtrip reg c fs v :
  c_ty c = TModel fs -> wf (TModel fs) = true -> check (TModel fs) v = true ->
  existsb (Nat.eqb K_type) (map fst fs) = false -> existsb (Nat.eqb K_ns) (map fst fs) = false ->
  find (fun c' => Nat.eqb (c_ns c') (c_ns c) && Nat.eqb (c_name c') (c_name c)) reg = Some c ->
  deserialize reg (serialize c v) = Some (c_ns c, c_name c, v).
Proof.
  intros T _ C N1 N2 F. destruct v; try discriminate.
  unfold serialize. rewrite encode_model. set (extra := [(SId K_type, JStr (SId (c_name c))); (SId K_ns, JStr (SId (c_ns c)))]).
  assert (D : decode (TModel fs) (JObj (enc_fields l ++ extra)) = Some (PModel l)).
  { apply model_rt; [|exact C]. apply Forall_forall. intros ft _. apply check_rt. }
  rewrite check_model in C. apply andb_prop in C as [_ M]. rewrite <- (matches_names fs l M) in N1, N2.
  unfold deserialize. rewrite (lookup_skip extra K_type l N1), (lookup_skip extra K_ns l N2).
  cbn [extra lookup str_eqb K_type K_ns Nat.eqb]. now rewrite F, T, D.
Qed.

Theorem unknown_class_rejected reg l n ns :
  lookup (SId K_type) l = Some (JStr (SId n)) -> lookup (SId K_ns) l = Some (JStr (SId ns)) ->
  find (fun c => Nat.eqb (c_ns c) ns && Nat.eqb (c_name c) n) reg = None ->
  deserialize reg (JObj l) = None.
Proof. intros A B F. unfold deserialize. now rewrite A, B, F. Qed.
Theorem missing_type_rejected reg l : lookup (SId K_type) l = None -> deserialize reg (JObj l) = None.
Proof. intros A. unfold deserialize. now rewrite A. Qed.
Theorem missing_ns_rejected reg l : lookup (SId K_ns) l = None -> deserialize reg (JObj l) = None.
Proof. intros A. unfold deserialize. rewrite A. destruct (lookup (SId K_type) l) as [[| | | |[]| |]|]; reflexivity. Qed.
