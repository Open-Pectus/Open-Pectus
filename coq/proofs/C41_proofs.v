(* C41: the macro recursion search is a sound and complete reachability test. *)
From Coq Require Import ZArith List Bool Arith Lia.
From OP Require Import lib.Obs lib.ListFacts model.MacroSearch.
From OP Require model.Interp.
Import ListNotations.

Inductive reach (t : tbl) (target : nat) : list nat -> Prop :=
| r_here b : In target b -> reach t target b
| r_step b c b' : In c b -> lookup t c = Some b' -> reach t target b' -> reach t target b.

Lemma reach_cons t target c rest : reach t target rest -> reach t target (c :: rest).
Proof.
  intros [b Hin|b c' b' Hin L R]; [apply r_here|apply (r_step _ _ _ c' b')]; auto using in_cons.
Qed.

Section Search.
  Variable t : tbl.
  Variable target : nat.

  Lemma search_cons f vis c rest : search (S f) t target vis (c :: rest) =
    if Nat.eqb c target then Some ([c], vis)
    else match lookup t c with
         | Some b => if memn c vis then search (S f) t target vis rest
                     else match search f t target (c :: vis) b with
                          | None => None
                          | Some ([], vis1) => search (S f) t target vis1 rest
                          | Some (p, vis1) => Some (c :: p, vis1)
                          end
         | None => search (S f) t target vis rest
         end.
  Proof. reflexivity. Qed.

  Definition closed_body (W : list nat) (b : list nat) : Prop :=
    forall c, In c b -> c <> target /\ (forall b', lookup t c = Some b' -> In c W).
  Definition settled (W : list nat) (x : nat) : Prop := exists b, lookup t x = Some b /\ closed_body W b.

  Lemma closed_body_cons W c rest : c <> target -> (forall b', lookup t c = Some b' -> In c W) ->
    closed_body W rest -> closed_body W (c :: rest).
  Proof. intros N L C c0 [<-|Hin]; [split; assumption|now apply C]. Qed.
  Lemma closed_body_mono W W' b : incl W W' -> closed_body W b -> closed_body W' b.
  Proof. intros HI HC c Hc. destruct (HC c Hc) as [A B]. split; [exact A|]. intros b' Hb'. exact (HI _ (B b' Hb')). Qed.
  Lemma settled_mono W W' x : incl W W' -> settled W x -> settled W' x.
  Proof. intros HI [b [L C]]. exists b. split; [exact L|exact (closed_body_mono _ _ _ HI C)]. Qed.

  (* of a search's result (q, v): a non-empty q is a genuine chain ending with the target; with an empty q the body is
     closed in v, and so is the body of every macro visited on the way *)
  Definition search_post (vis body q v : list nat) : Prop :=
    incl vis v /\
    match q with
    | [] => closed_body v body /\ forall x, In x v -> In x vis \/ settled v x
    | _ => reach t target body /\ last q 0%nat = target
    end.

  (* the search passes over a call c that cannot lead to the target and goes on in rest, with vis' visited *)
  Lemma search_post_skip vis vis' c rest q v :
    c <> target -> (forall b', lookup t c = Some b' -> In c vis') ->
    incl vis vis' -> (forall x, In x vis' -> In x vis \/ settled vis' x) ->
    search_post vis' rest q v -> search_post vis (c :: rest) q v.
  Proof.
    intros Ec L I N [I1 S1]. split; [exact (incl_tran I I1)|]. destruct q.
    - destruct S1 as [C1 N1]. split.
      + apply closed_body_cons; [exact Ec| |exact C1]. intros b' Hb'. exact (I1 _ (L b' Hb')).
      + intros x Hx. destruct (N1 x Hx) as [Hx'|Hs]; [|now right].
        destruct (N x Hx') as [Hv|Hs]; [now left|right; exact (settled_mono _ _ _ I1 Hs)].
    - split; [apply reach_cons|]; apply S1.
  Qed.

  Lemma search_spec f : forall vis body q v, search f t target vis body = Some (q, v) -> search_post vis body q v.
  Proof.
    induction f as [|f IH]; [discriminate|].
    intros vis body. revert vis. induction body as [|c rest IHb]; intros vis q v H.
    - inversion H; subst. split; [apply incl_refl|]. split; [intros c []|now left].
    - rewrite search_cons in H. destruct (Nat.eqb c target) eqn:Ec.
      { apply Nat.eqb_eq in Ec. inversion H; subst. split; [apply incl_refl|]. split; [apply r_here; now left|reflexivity]. }
      apply Nat.eqb_neq in Ec. destruct (lookup t c) as [b|] eqn:El.
      + destruct (memn c vis) eqn:Em.
        * apply (search_post_skip vis vis); [exact Ec| |apply incl_refl|now left|exact (IHb _ _ _ H)].
          intros _ _. now apply existsb_eqb_In.
        * destruct (search f t target (c :: vis) b) as [[q1 v1]|] eqn:Es; [|discriminate].
          destruct (IH _ _ _ _ Es) as [I0 S0]. destruct q1 as [|q0 q1].
          -- destruct S0 as [C0 N0]. apply (search_post_skip vis v1); [exact Ec| | | |exact (IHb _ _ _ H)].
             ++ intros _ _. apply I0, in_eq.
             ++ intros x Hx. apply I0, in_cons, Hx.
             ++ intros x Hx. destruct (N0 x Hx) as [[<-|Hv]|Hs]; [right; now exists b|now left|now right].
          -- inversion H; subst. split; [intros x Hx; apply I0, in_cons, Hx|].
             split; [exact (r_step _ _ _ c b (in_eq c rest) El (proj1 S0))|exact (proj2 S0)].
      + apply (search_post_skip vis vis); [exact Ec|congruence|apply incl_refl|now left|exact (IHb _ _ _ H)].
  Qed.

  Lemma search_incl f vis body q v : search f t target vis body = Some (q, v) -> incl vis v.
  Proof. intros H. apply (search_spec f _ _ _ _ H). Qed.

  Lemma sound f : forall vis body p v, search f t target vis body = Some (p, v) -> p <> [] ->
    reach t target body /\ last p 0%nat = target.
  Proof.
    intros vis body p v H Hp. destruct (search_spec f _ _ _ _ H) as [_ S]. destruct p; [contradiction|exact S].
  Qed.

  (* no chain leaves a closed body whose visited macros are all settled *)
  Theorem complete f body v : search f t target [] body = Some ([], v) -> ~ reach t target body.
  Proof.
    intros H R. destruct (search_spec f _ _ _ _ H) as [_ [C N]]. clear H.
    induction R as [b Hin|b c b' Hin Hl R IH].
    - now apply (C _ Hin).
    - destruct (N c (proj2 (C _ Hin) _ Hl)) as [[]|[bc [Lc Cc]]]. apply IH. congruence.
  Qed.
End Search.

Definition unvisited (t : tbl) (vis : list nat) : nat := length (filter (fun k => negb (memn k vis)) (map fst t)).

Lemma lookup_key t c b : lookup t c = Some b -> In c (map fst t).
Proof.
  induction t as [|[k b0] t IH]; cbn; [discriminate|].
  destruct (Nat.eqb_spec k c) as [->|_]; [now left|]. intros H. right. now apply IH.
Qed.

Lemma unseen_mono vis vis' x : incl vis vis' -> negb (memn x vis') = true -> negb (memn x vis) = true.
Proof. unfold memn. intros H. destruct (existsb _ vis) eqn:E; [|reflexivity]. apply existsb_eqb_In, H, existsb_eqb_In in E. now rewrite E. Qed.

Lemma unvisited_mono t vis vis' : incl vis vis' -> (unvisited t vis' <= unvisited t vis)%nat.
Proof. intros H. apply filter_length_le. intros x. now apply unseen_mono. Qed.

Lemma unvisited_add t vis c b : lookup t c = Some b -> memn c vis = false -> (unvisited t (c :: vis) < unvisited t vis)%nat.
Proof.
  intros L M. apply (filter_length_lt _ _ _ c).
  - intros y. apply unseen_mono, incl_tl, incl_refl.
  - exact (lookup_key _ _ _ L).
  - apply negb_false_iff, existsb_eqb_In, in_eq.
  - now rewrite M.
Qed.

Lemma unvisited_bound t : (unvisited t [] <= length t)%nat.
Proof. unfold unvisited. rewrite <- (map_length fst t). apply filter_length_bound. Qed.

Lemma fuel_enough t target f : forall vis body, (unvisited t vis < f)%nat -> search f t target vis body <> None.
Proof.
  induction f as [|f IH]; [lia|].
  intros vis body. revert vis. induction body as [|c rest IHb]; intros vis Hf; [discriminate|]. rewrite search_cons.
  destruct (Nat.eqb c target); [discriminate|].
  destruct (lookup t c) as [b|] eqn:El; [|now apply IHb].
  destruct (memn c vis) eqn:Em; [now apply IHb|].
  pose proof (unvisited_add t vis c b El Em) as Lt.
  destruct (search f t target (c :: vis) b) as [[q v1]|] eqn:Es.
  - destruct q as [|q0 q]; [|discriminate]. apply IHb.
    pose proof (unvisited_mono t (c :: vis) v1 (search_incl _ _ _ _ _ _ _ Es)). lia.
  - exfalso. apply (IH (c :: vis) b); [lia|exact Es].
Qed.

Theorem search_terminates t target body : search (S (length t)) t target [] body <> None.
Proof. apply fuel_enough. pose proof (unvisited_bound t). lia. Qed.

Theorem refused_decides t m b : lookup t m = Some b -> (refused t m = true <-> reach t m b).
Proof.
  intros L. unfold refused. rewrite L.
  destruct (search (S (length t)) t m [] b) as [[[|p0 p] v]|] eqn:Es.
  - split; [discriminate|]. intros R. destruct (complete t m _ _ _ Es R).
  - split; [|reflexivity]. intros _. now apply (sound t m _ _ _ _ _ Es).
  - destruct (search_terminates t m b Es).
Qed.

Section InterpMacros.
  Import Interp.
  Variable p : program.
  Lemma lookup_put l nm m nm' : macro_lookup (macro_put l nm m) nm' = if Nat.eqb nm nm' then Some m else macro_lookup l nm'.
  Proof.
    induction l as [|[k m0] l IH]; cbn [macro_put macro_lookup]; [reflexivity|].
    destruct (Nat.eqb_spec k nm) as [->|N]; cbn [macro_lookup]; [now destruct (Nat.eqb nm nm')|].
    rewrite IH. destruct (Nat.eqb_spec k nm') as [->|_]; [|reflexivity]. now rewrite (proj2 (Nat.eqb_neq nm nm')) by congruence.
  Qed.
  Lemma undefined_call_fails e b n nm k s : n_kind (nd p n) = KCallMacro nm -> macro_lookup (macros s) nm = None ->
    dispatch p e b n k s = Raise k s.
  Proof. intros K L. unfold dispatch. now rewrite K, L. Qed.
  Lemma recursive_call_fails e b n nm m k s : n_kind (nd p n) = KCallMacro nm -> macro_lookup (macros s) nm = Some m ->
    would_recurse p s nm m = true -> dispatch p e b n k s = Raise k s.
  Proof. intros K L W. unfold dispatch. now rewrite K, L, W. Qed.
End InterpMacros.
