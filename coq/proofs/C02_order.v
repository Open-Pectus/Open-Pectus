(* C02 (order clause): after every tick of every run of the interpreter model, outside the bodies of Alarms and Macros a line
   that has started lies in a scope that has started -- a line starts only after (the visit of) its parent line has
   started. Proved with the stack invariants of Interp_stack.v: every frame of every generator (running, stored in the
   interrupt map, or in the tick's copy of the map) belongs to a line whose parent has started. *)
From Coq Require Import ZArith List Bool Arith Lia.
From OP Require Import lib.Obs lib.ListFacts model.Interp model.InterpRun proofs.Interp_base proofs.Interp_stack proofs.Interp_inv proofs.Interp_eff
     proofs.Interp_fields proofs.C02_proofs.
Import ListNotations.
Open Scope Z_scope.

(* one goal for every path through a transition (after cbn [step]): the helpers of step unfolded, every match split *)
Ltac unf := unfold thr_loop, enter, block_wait_end, block_try, block_release, watch_await, alarm_await.
Ltac cases := repeat match goal with |- context [match ?x with _ => _ end] => destruct x eqn:? end.

Section Order.
  Variable p : program.

  Definition plain (m : nat) : bool := Nat.ltb m (length p) && negb (under_alarm p m) && negb (is_blank p m).
  Definition par (c q : nat) : Prop := n_parent (nd p c) = Some q.
  (* the method tree: child lists and parent pointers agree; the root has no parent (InterpRun.wf_b, evaluated by the
     monitors on every generated method) *)
  Hypothesis WF : wf_b p = true.
  Lemma kids_par q c : In c (n_children (nd p q)) -> par c q.
  Proof.
    intros H. destruct (Nat.lt_ge_cases q (length p)) as [L|G]; [|rewrite nd_overflow in H by exact G; destruct H].
    assert (Hq : In q (seq 0 (length p))) by (apply in_seq; lia).
    apply andb_prop in WF as [W _]. apply (proj1 (forallb2_forall _ _ _) W q c Hq) in H.
    unfold par. destruct (n_parent (nd p c)) as [q'|]; [|discriminate]. apply Nat.eqb_eq in H. now subst.
  Qed.
  Lemma root_par q : ~ par 0 q.
  Proof. apply andb_prop in WF as [_ W]. unfold par. destruct (n_parent (nd p 0)); discriminate. Qed.

  Definition on (s : S) (n : nat) : Prop := plain n = true -> started (st s n) = true.
  Definition vis (s : S) (n : nat) : Prop := forall q, par n q -> plain q = true -> started (st s q) = true.
  Definition both (s : S) (n : nat) : Prop := vis s n /\ on s n.
  (* FVisit c / FThr c run before line c has started and carry its scope only. Every other frame of a line is pushed after
     `enter` set the line's started flag and carries that as well; the children loop needs nothing else. *)
  Definition Q (s : S) (f : frame) : Prop :=
    match f with
    | FVisit c | FThr c => vis s c
    | FRet | FProgAfter | FProgIdle => True
    | FKidsEntry n | FKids n _ | FKidsAfter n _ => on s n
    | FNodeTick n | FVisitEnd n | FMark1 n | FBlankIdle n | FBlank1 n | FBlkA n | FBlkWait n | FBlkB n | FBlkC n | FBlkEnd n
    | FWait n _ | FNoop n _ | FWatchAwait n | FWatchInv n | FWatchBody n | FAlarmAwait n | FAlarmInv n | FAlarmBody n
    | FAlarmPost n | FInjAfter n | FMacro1 n | FCallAfter n _ => both s n
    end.
  Definition T (s : S) : Prop :=
    length (nodes s) = length p
    /\ forall c q, par c q -> plain c = true -> plain q = true -> started (st s c) = true -> started (st s q) = true.
  Definition R (s s' : S) : Prop :=
    length (nodes s') = length (nodes s) /\ forall m, plain m = true -> started (st s m) = true -> started (st s' m) = true.

  Lemma on_stable s s' n : R s s' -> on s n -> on s' n. Proof. intros [_ M] H P. apply M; auto. Qed.
  Lemma vis_stable s s' n : R s s' -> vis s n -> vis s' n. Proof. intros [_ M] H q Pq P. apply M; auto. Qed.
  Lemma Q_stable s s' f : R s s' -> Q s f -> Q s' f.
  Proof.
    intros H. destruct f; cbn [Q]; try exact id; try (apply vis_stable; exact H); try (apply on_stable; exact H);
      intros [A B]; (split; [eapply vis_stable|eapply on_stable]; eassumption).
  Qed.

  Lemma plain_spec m : plain m = true <-> (m < length p)%nat /\ under_alarm p m = false /\ is_blank p m = false.
  Proof.
    unfold plain. split.
    - intros H. apply andb_prop in H as [H B]. apply andb_prop in H as [L U].
      split; [now apply Nat.ltb_lt|]. split; now apply negb_true_iff.
    - intros [L [U B]]. apply Nat.ltb_lt in L. now rewrite L, U, B.
  Qed.
  Lemma plain_repeats a m : repeats p a -> (m = a \/ In m (descendants p a)) -> plain m = false.
  Proof. intros K H. unfold plain. rewrite (under_alarm_of p a m K H). cbn [negb]. now rewrite andb_false_r. Qed.

  Definition Amon (m : nat) (x x' : ns) : Prop := plain m = true -> started x = true -> started x' = true.
  Lemma step_mono e b f k s m : Amon m (st s m) (st (o_state (step p e b f k s)) m).
  Proof.
    revert m. apply (node_step p e Amon); unfold Amon; auto.
    intros s0 m x x' U P. apply plain_spec in P as [_ [Ua B]]. exact (nupd_started p e f s0 m x x' U Ua B).
  Qed.
  Definition Anew (En : nat -> Prop) (m : nat) (x x' : ns) : Prop :=
    plain m = true -> started x' = true -> started x = true \/ En m.
  Lemma step_new e b f k s m : plain m = true -> started (st (o_state (step p e b f k s)) m) = true ->
    started (st s m) = true \/ f = FVisit m \/ f = FThr m.
  Proof.
    revert m. apply (node_step p e (Anew (fun m => f = FVisit m \/ f = FThr m))); unfold Anew; auto.
    - intros m x y z H1 H2 P S0. destruct (H2 P S0) as [S1|E]; auto.
    - intros s0 m x x' U P S1. apply plain_spec in P as [_ [Ua B]].
      destruct (nupd_starts p e f s0 m x x' U Ua B S1) as [S0|[F _]]; auto.
  Qed.

  Lemma l_set_ns s n x : length (nodes (set_ns s n x)) = length (nodes s). Proof. apply upd_length. Qed.
  Lemma l_with_ints s i sr : length (nodes (with_ints s i sr)) = length (nodes s). Proof. reflexivity. Qed.
  Lemma l_with_tag s t : length (nodes (with_tag s t)) = length (nodes s). Proof. reflexivity. Qed.
  Lemma l_add_mark s n : length (nodes (add_mark s n)) = length (nodes s). Proof. reflexivity. Qed.
  Lemma l_add_sched s : length (nodes (add_sched s)) = length (nodes s). Proof. reflexivity. Qed.
  Lemma l_set_error s n : length (nodes (set_error s n)) = length (nodes s). Proof. reflexivity. Qed.
  Lemma l_with_macros s l : length (nodes (with_macros s l)) = length (nodes s). Proof. reflexivity. Qed.
  Lemma l_complete s n : length (nodes (complete s n)) = length (nodes s). Proof. apply l_set_ns. Qed.
  Lemma l_register s n : length (nodes (register_interrupt p s n)) = length (nodes s).
  Proof. unfold register_interrupt. destruct (in_ended_block p s n); [reflexivity|]. now rewrite l_set_ns. Qed.
  Lemma l_end_block s b : length (nodes (end_block p s b)) = length (nodes s).
  Proof.
    unfold end_block, abort_block_interrupts. apply (fold_left_inv (fun s' => length (nodes s') = length (nodes s))); [|apply l_set_ns].
    intros s0 x H. destruct (memn (fst x) (descendants p b)); [|exact H]. unfold unregister_interrupt. cbn [nodes with_ints]. now rewrite !l_set_ns.
  Qed.
  Lemma l_end_blocks l s : length (nodes (fold_left (end_block p) l s)) = length (nodes s).
  Proof. apply (fold_left_inv (fun s' => length (nodes s') = length (nodes s))); [|reflexivity]. intros s0 b H. now rewrite l_end_block. Qed.
  Lemma l_reset_tree s a : length (nodes (reset_tree p s a)) = length (nodes s).
  Proof. apply (fold_left_inv (fun s' => length (nodes s') = length (nodes s))); [|reflexivity]. intros s0 m H. now rewrite l_set_ns. Qed.

  Lemma step_len e b f k s : length (nodes (o_state (step p e b f k s))) = length (nodes s).
  Proof.
    refine (eff_rel_nodes p e f (fun a c => length (nodes c) = length (nodes a)) _ _ _ _ _ s _ (step_eff p e b f k s)).
    - reflexivity.
    - intros a0 b0 c0 H1 H2. congruence.
    - intros s0 n x _. apply l_set_ns.
    - intros s0 n. apply l_set_ns.
    - intros s0 s1 N. now rewrite N.
  Qed.

  Definition isub (N : nat -> Prop) (s s' : S) : Prop :=
    forall x, In x (ints s') -> In x (ints s) \/ exists n, N n /\ snd (snd x) = [FVisit n].
  Lemma isub_refl N s : isub N s s. Proof. intros x H. now left. Qed.
  Lemma isub_trans N a b c : isub N a b -> isub N b c -> isub N a c.
  Proof. intros H1 H2 x H. destruct (H2 x H) as [H3|H3]; [now apply H1|now right]. Qed.
  Lemma isub_same N s s' : ints s' = ints s -> isub N s s'. Proof. intros E x H. left. now rewrite <- E. Qed.

  Lemma step_ints e b f k s :
    isub (fun n => f = FNodeTick n \/ f = FAlarmPost n) s (o_state (step p e b f k s)).
  Proof.
    refine (eff_rel_fine p e f (isub _) (isub_refl _) (isub_trans _) _ _ _ _ _ _ s _ (step_eff p e b f k s)).
    - intros s0 n x _. now apply isub_same.
    - intros s0 n. now apply isub_same.
    - intros s0 s1 _ J _. now apply isub_same.
    - intros s0 n F _ x Hx. apply put_int_In in Hx as [Hx| ->]; [now left|]. right. now exists n.
    - intros s0 n x Hx. left. now apply del_int_In in Hx.
    - intros s0 nm n _ _. now apply isub_same.
  Qed.

  Lemma plain_set_ns s n x : length (nodes s) = length p -> plain n = true -> st (set_ns s n x) n = x.
  Proof. intros L P. apply st_set_ns_eq. rewrite L. now apply plain_spec in P. Qed.
  Lemma on_enter s n : T s -> on (set_ns s n (set_started (st s n) true)) n.
  Proof. intros [L _] P. now rewrite plain_set_ns. Qed.
  Lemma on_macro s m nm : n_kind (nd p m) = KMacro nm -> on s m.
  Proof. intros K P. rewrite (plain_repeats m m) in P; [discriminate|right; eauto|now left]. Qed.
  Lemma vis_kid s n i c : nth_error (n_children (nd p n)) i = Some c -> on s n -> vis s c.
  Proof.
    intros H Ho q Pq P. apply nth_error_In in H. apply kids_par in H. unfold par in *. rewrite H in Pq. inversion Pq; subst. now apply Ho.
  Qed.

  (* A transition pops a frame of line n and pushes frames of the same line, whose Q is inherited from the popped frame by
     stability under R. The exceptions: FKids pushes FVisit c for a child c (vis_kid); `enter` pushes FNodeTick n ::
     FVisitEnd n right after setting started (on_enter); a macro call pushes the children loop of the Macro line, which is
     not plain (on_macro). by_frame_reason tries exactly these reasons on one pushed frame. *)
  Ltac by_frame_reason HR :=
    lazymatch goal with
    | |- True => exact I
    | |- both _ _ => split; by_frame_reason HR
    | |- vis _ _ => first [ eapply vis_stable; [exact HR|assumption]
                          | match goal with H : nth_error _ _ = Some ?c |- vis _ ?c =>
                              eapply vis_kid; [exact H|eapply on_stable; [exact HR|assumption]] end ]
    | |- on _ _ => first [ eapply on_stable; [exact HR|assumption]
                         | match goal with HT : T _ |- _ => apply (on_enter _ _ HT) end
                         | match goal with H : n_kind (nd p ?m) = KMacro _ |- on _ ?m => apply (on_macro _ _ _ H) end ]
    end.

  Lemma step_frames e b f k s : T s -> Q s f ->
    R s (o_state (step p e b f k s)) -> Forall (Q (o_state (step p e b f k s))) k ->
    Forall (Q (o_state (step p e b f k s))) (o_stack (step p e b f k s)).
  Proof.
    intros HT HQ. destruct f; cbn [Q] in HQ; try (match type of HQ with both _ _ => destruct HQ as [Hv Ho] end); cbn [step]; unf.
    3: unfold dispatch; unf.
    all: cases; cbn [o_state o_stack]. all: intros HR Hk; repeat (apply Forall_cons); try exact Hk; cbn [Q]; by_frame_reason HR.
  Qed.
End Order.

(* The three scope theorems (C02: a started line lies in a started scope; C04: ... in an activated Watch; C05: ... in a
   block that took the lock) are one argument. A scope line q of the kind K at hand raises its flag phi before it visits its
   children, and outside Alarm / Macro bodies phi is never lowered again. Every frame of every generator carries, by the
   file's Q, that the scopes around its line have phi up (scoped), the children loop also that its own line has (gated). *)
Section Scope.
  Variable p : program.
  Hypothesis WF : wf_b p = true.
  Variable K : nat -> bool.
  Variable phi : ns -> bool.

  Definition gated (s : S) (q : nat) : Prop := plain p q = true -> K q = true -> phi (st s q) = true.
  Definition scoped (s : S) (n : nat) : Prop := forall q, par p n q -> gated s q.
  Definition mono (s s' : S) : Prop := forall m, plain p m = true -> phi (st s m) = true -> phi (st s' m) = true.

  Lemma gated_stable s s' n : mono s s' -> gated s n -> gated s' n.
  Proof. intros H A P W. apply H; auto. Qed.
  Lemma scoped_stable s s' n : mono s s' -> scoped s n -> scoped s' n.
  Proof. intros H V q Pq. eapply gated_stable; eauto. Qed.
  Lemma gated_kind s n : K n = false -> gated s n.
  Proof. intros E _ W. congruence. Qed.
  Lemma scoped_kid s n i c : nth_error (n_children (nd p n)) i = Some c -> gated s n -> scoped s c.
  Proof.
    intros H A q Pq. apply nth_error_In in H. apply (kids_par p WF) in H. unfold par in *. rewrite H in Pq. inversion Pq; subst. exact A.
  Qed.

  Definition Ts (s : S) : Prop :=
    length (nodes s) = length p /\ forall c q, par p c q -> plain p c = true -> started (st s c) = true -> gated s q.
  Definition Rs (s s' : S) : Prop := length (nodes s') = length (nodes s) /\ mono s s'.
  Lemma Rs_refl s : Rs s s.
  Proof. split; [reflexivity|intros m _ H; exact H]. Qed.
  Lemma Rs_trans a b c : Rs a b -> Rs b c -> Rs a c.
  Proof. intros [L1 M1] [L2 M2]. split; [congruence|intros m P H; auto]. Qed.

  Variable Q : S -> frame -> Prop.
  Hypothesis Q_scoped : forall s f n, f = FVisit n \/ f = FThr n \/ f = FNodeTick n \/ f = FAlarmPost n -> Q s f -> scoped s n.
  Hypothesis Q_visit : forall s n, scoped s n -> Q s (FVisit n).
  Hypothesis Q_stable : forall s s' f, Rs s s' -> Q s f -> Q s' f.
  Hypothesis phi_step : forall e b f k s, mono s (o_state (step p e b f k s)).
  Hypothesis phi_failed : forall x, phi x = true -> phi (set_failed x true) = true.
  Hypothesis phi_completed : forall x, phi x = true -> phi (set_completed x true) = true.
  Hypothesis frames : forall e b f k s, Ts s -> Q s f ->
    Rs s (o_state (step p e b f k s)) -> Forall (Q (o_state (step p e b f k s))) k ->
    Forall (Q (o_state (step p e b f k s))) (o_stack (step p e b f k s)).

  (* one transition: a line starts in visit only (step_new), whose frame knows the scope; the generators a transition adds
     to the map are visits of the line at hand (step_ints) *)
  Lemma step_Gs e b f k s : G Q Ts s (f :: k) ->
    Rs s (o_state (step p e b f k s)) /\ G Q Ts (o_state (step p e b f k s)) (o_stack (step p e b f k s)).
  Proof.
    intros [[L HT] [HF HO]]. pose proof (Forall_inv HF) as HQ.
    assert (HR : Rs s (o_state (step p e b f k s))) by (split; [apply step_len|apply phi_step]).
    split; [exact HR|]. split; [|split].
    - split; [now rewrite step_len|]. intros c q Pq Pc Sc. eapply gated_stable; [apply HR|].
      destruct (step_new p e b f k s c Pc Sc) as [S0|E]; [now apply (HT c q)|]. apply (Q_scoped s f c); [tauto|exact HQ|exact Pq].
    - apply frames; [split; assumption|exact HQ|exact HR|].
      exact (Forall_stable Q Rs Q_stable _ _ _ HR (Forall_inv_tail HF)).
    - intros x Hx. destruct (step_ints p e b f k s x Hx) as [Hin|[n [E Ex]]].
      + exact (Forall_stable Q Rs Q_stable _ _ _ HR (HO x Hin)).
      + rewrite Ex. constructor; [|constructor]. apply Q_visit. eapply scoped_stable; [apply HR|]. apply (Q_scoped s f n); [tauto|exact HQ].
  Qed.

  Definition quiet (s s' : S) : Prop := Rs s s' /\ forall m, started (st s' m) = started (st s m).
  Lemma quiet_T s s' : quiet s s' -> Ts s -> Ts s'.
  Proof.
    intros [[L M] E] [L0 H]. split; [congruence|]. intros c q Pq Pc Sc. rewrite E in Sc. eapply gated_stable; [exact M|]. now apply (H c q).
  Qed.
  Lemma Rs_eq s s' : length (nodes s') = length (nodes s) -> (forall m, phi (st s' m) = phi (st s m)) -> Rs s s'.
  Proof. intros El Ep. split; [exact El|]. intros m _ H. now rewrite Ep. Qed.
  Lemma quiet_eq s s' : (forall m, phi (st s' m) = phi (st s m)) -> (forall m, started (st s' m) = started (st s m)) ->
    length (nodes s') = length (nodes s) -> quiet s s'.
  Proof. intros Ep Es El. exact (conj (Rs_eq s s' El Ep) Es). Qed.
  Lemma quiet_nodes s s' : nodes s' = nodes s -> quiet s s'.
  Proof. intros E. apply quiet_eq; unfold st; now rewrite E. Qed.
  Lemma quiet_set_ns s n x : started x = started (st s n) -> (phi (st s n) = true -> phi x = true) -> quiet s (set_ns s n x).
  Proof.
    intros Es Ep. split; [split; [apply l_set_ns|]|].
    - exact (set_ns_rel (fun m y z => plain p m = true -> phi y = true -> phi z = true) s n x (fun _ _ H => H) (fun _ => Ep)).
    - intros m. now apply set_ns_field.
  Qed.
  Lemma quiet_fail s n : quiet s (set_error (set_ns s n (set_failed (st s n) true)) n).
  Proof. exact (quiet_set_ns s n (set_failed (st s n) true) eq_refl (phi_failed _)). Qed.
  Lemma quiet_cmd s n : quiet s (mark_completed s n).
  Proof.
    destruct (mark_completed_cases s n) as [->| ->]; [now apply quiet_nodes|]. apply quiet_set_ns; [reflexivity|apply phi_completed].
  Qed.

  (* what the updates between the ticks may do: cancel / force requests (C12_runs.v) leave the interrupt map alone, an
     injected snippet (C14_order.v) adds the generator [FVisit r] of its parentless root r *)
  Definition fresh_roots {upd} (apply : S -> upd -> S) (u : upd) : Prop :=
    forall s x, In x (ints (apply s u)) -> In x (ints s) \/ exists r, n_parent (nd p r) = None /\ snd (snd x) = [FVisit r].
  Definition quiet_upds (upd : Type) (apply : S -> upd -> S) (ts : list (tick_in * list upd)) : Prop :=
    (forall s u m, phi (st (apply s u) m) = phi (st s m)) /\ (forall s u m, started (st (apply s u) m) = started (st s m)) /\
    (forall s u, length (nodes (apply s u)) = length (nodes s)) /\
    forall t us u, In (t, us) ts -> In u us -> fresh_roots apply u.
  Lemma no_upds ts : quiet_upds Empty_set (fun s _ => s) (map (fun t => (t, [])) ts).
  Proof. repeat split. intros t us []. Qed.

  Theorem scope_always upd apply ts : quiet_upds upd apply ts ->
    Forall Ts (gstates p upd apply [FVisit 0] (init p) 0 ts).
  Proof.
    intros [Ep [Es [El Ei]]]. assert (Uq : forall s u, quiet s (apply s u)) by (intros s u; apply quiet_eq; auto).
    apply (grun_G_upd p Q Ts Rs Rs_refl Rs_trans Q_stable step_Gs) with (okU := fresh_roots apply); [..|exact Ei|].
    - (* fail_R *) intros s n. apply quiet_fail.
    - (* fail_T *) intros s n. apply quiet_T, quiet_fail.
    - (* ints_R *) intros s i sr. now apply quiet_nodes.
    - (* ints_T *) intros s i sr. now apply quiet_T, quiet_nodes.
    - (* cmd_R *) intros s n. apply quiet_cmd.
    - (* cmd_T *) intros s n. apply quiet_T, quiet_cmd.
    - (* sched_R *) intros s. now apply quiet_nodes.
    - (* sched_T *) intros s. now apply quiet_T, quiet_nodes.
    - (* the updates between the ticks: R *) intros s u _. apply Uq.
    - (* T *) intros s u _. apply quiet_T, Uq.
    - (* the stacks of the map *) intros s u Hu _ O x Hx. destruct (Hu s x Hx) as [Hin|[r [Pr Ex]]].
      + exact (Forall_stable Q Rs Q_stable _ _ _ (proj1 (Uq s u)) (O x Hin)).
      + rewrite Ex. constructor; [|constructor]. apply Q_visit. intros q Pq. unfold par in Pq. congruence.
    - (* G of the first state *) split; [|split].
      + split; [unfold init; cbn [nodes]; apply repeat_length|]. intros c q _ _ Sc. now rewrite st_init in Sc.
      + constructor; [|constructor]. apply Q_visit. intros q Pq. now apply (root_par p WF) in Pq.
      + intros x [].
  Qed.
End Scope.

(* C02: every line is a scope, its flag is started *)
Theorem order_always_upd p upd apply ts : wf_b p = true -> quiet_upds p started upd apply ts ->
  Forall (fun s => forall c q, n_parent (nd p c) = Some q -> plain p c = true -> plain p q = true ->
                               started (st s c) = true -> started (st s q) = true)
         (gstates p upd apply [FVisit 0] (init p) 0 ts).
Proof.
  intros W U. eapply Forall_impl; [|apply (scope_always p W (fun _ => true) started (Q p)); [..|exact U]].
  - intros s [_ H] c q Pq Pc Pl Sc. exact (H c q Pq Pc Sc Pl eq_refl).
  - intros s f n [-> | [-> | [-> | ->]]] H q Pq Pl _; cbn [Q] in H; apply H; assumption.
  - intros s n H q Pq Pl. exact (H q Pq Pl eq_refl).
  - apply Q_stable.
  - intros e b f k s m. apply step_mono.
  - intros x H. exact H.
  - intros x H. exact H.
  - intros e b f k s [L H]. apply (step_frames p W). split; [exact L|]. intros c q Pq Pc Pl Sc. exact (H c q Pq Pc Sc Pl eq_refl).
Qed.

Theorem started_line_lies_in_started_scope p ts : wf_b p = true ->
  Forall (fun s => forall c q, n_parent (nd p c) = Some q -> plain p c = true -> plain p q = true ->
                               started (st s c) = true -> started (st s q) = true)
         (states p [FVisit 0] (init p) 0 ts).
Proof. intros W. rewrite states_gstates. apply (order_always_upd p _ _ _ W), no_upds. Qed.
