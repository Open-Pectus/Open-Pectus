(* C22: the recognisers built for command argument patterns: what take_number / take_unit capture from a rendered
   argument, the documented language of a categorical pattern implies the implemented one (doc_implies_impl), and the
   witnesses of what the implementation accepts beyond it. *)
From Coq Require Import ZArith List Bool Lia.
From OP Require Import lib.Obs lib.ListFacts model.C22.
Import ListNotations.
Open Scope Z_scope.

Lemma prefix_app p s r : prefix p s = Some r -> s = p ++ r.
Proof.
  revert s. induction p as [|a p IH]; intros s H; cbn in H; [inversion H; reflexivity|].
  destruct s as [|b s]; [discriminate|]. destruct (a =? b) eqn:E; [|discriminate].
  apply Z.eqb_eq in E. subst. cbn. f_equal. now apply IH.
Qed.

Lemma prefix_self p r : prefix p (p ++ r) = Some r.
Proof. induction p as [|a p IH]; cbn; [reflexivity|]. now rewrite Z.eqb_refl. Qed.

Lemma drop_spaces_app s : exists pre, all_space pre = true /\ s = pre ++ drop_spaces s.
Proof.
  induction s as [|c s [pre [Hp E]]]; [exists []; auto|]. cbn [drop_spaces].
  destruct (is_space c) eqn:Ec.
  - exists (c :: pre). unfold all_space in *. cbn [forallb app]. rewrite Ec, Hp. split; [reflexivity|]. now f_equal.
  - exists []. auto.
Qed.

Lemma take_digits_app s d r : take_digits s = (d, r) -> s = d ++ r /\ forallb is_digit d = true.
Proof.
  revert d r. induction s as [|c s IH]; intros d r H; cbn in H; [inversion H; auto|].
  destruct (is_digit c) eqn:Ec.
  - destruct (take_digits s) as [d' r'] eqn:E. inversion H; subst. destruct (IH d' r eq_refl) as [-> Hd].
    cbn. rewrite Ec, Hd. auto.
  - inversion H; subst. auto.
Qed.

(* the result when no fraction follows the digits d1 *)
Lemma int_result (sg d1 s2 n r : str) :
  match d1 with [] => None | _ => Some (sg ++ d1, s2) end = Some (n, r) -> sg ++ d1 ++ s2 = n ++ r.
Proof. destruct d1; [discriminate|]. intros [= <- <-]. apply app_assoc. Qed.

Lemma take_number_app nonneg intonly s n r : take_number nonneg intonly s = Some (n, r) -> s = n ++ r.
Proof.
  (* s is an optional sign sg and a rest s1; what follows does not look at the sign *)
  unfold take_number. destruct (match s with [] => _ | _ => _ end) as [sg s1] eqn:Es.
  assert (s = sg ++ s1) as ->.
  { destruct s as [|c s']; [|destruct (_ && _)]; injection Es as <- <-; reflexivity. }
  clear Es.
  destruct (take_digits s1) as [d1 s2] eqn:E1. apply take_digits_app in E1 as [-> _].
  destruct intonly; [apply int_result|]. destruct s2 as [|c s3]; [apply int_result|].
  destruct (c =? dot) eqn:Ed; [|apply int_result]. apply Z.eqb_eq in Ed as ->.
  destruct (take_digits s3) as [d2 s4] eqn:E2. apply take_digits_app in E2 as [-> _].
  intros H. assert (E : (sg ++ d1 ++ [dot] ++ d2, s4) = (n, r)) by (destruct d1, d2; congruence).
  injection E as <- <-. now rewrite <- !app_assoc.
Qed.

Lemma take_unit_app units s u :
  take_unit units s = Some u -> In u units /\ exists tail, s = u ++ tail /\ all_space tail = true.
Proof.
  induction units as [|x units IH]; cbn; [discriminate|].
  destruct (prefix x s) as [rest|] eqn:Ep; [destruct (all_space rest) eqn:Ea|].
  2, 3: intros H; split; [right|]; apply IH, H.
  intros [= <-]. split; [now left|]. exists rest. split; [now apply prefix_app|exact Ea].
Qed.

Lemma number_capture units nonneg intonly s num unit :
  match_number units nonneg intonly s = Some (num, unit) ->
  exists pre mid post,
    all_space pre = true /\ all_space mid = true /\ all_space post = true /\
    s = pre ++ num ++ mid ++ (match unit with Some u => u | None => [] end) ++ post /\
    match unit with Some u => In u units | None => units = [] end.
Proof.
  unfold match_number. destruct (drop_spaces_app s) as (pre & Hpre & Es).
  destruct (take_number nonneg intonly (drop_spaces s)) as [[n rest]|] eqn:En; [|discriminate].
  apply take_number_app in En. destruct (drop_spaces_app rest) as (mid & Hmid & Er). rewrite En, Er in Es.
  destruct units as [|u0 units'].
  - destruct (all_space (drop_spaces rest)) eqn:Ea; [|discriminate]. intros [= <- <-].
    exists pre, mid, (drop_spaces rest). repeat split; assumption.
  - destruct (take_unit (u0 :: units') (drop_spaces rest)) as [u|] eqn:Eu; [|discriminate]. intros [= <- <-].
    apply take_unit_app in Eu as (Hin & tail & Et & Ha). rewrite Et in Es.
    exists pre, mid, tail. repeat split; assumption.
Qed.

(* exactly when the pattern accepts the empty value *)
Lemma match_empty excl add :
  match_categorical excl add [] = existsb (str_eqb []) excl || (match excl with [] => true | _ => false end)
                                  || (match add with [] => true | _ => existsb (str_eqb []) add end).
Proof. unfold match_categorical. cbn. apply orb_false_r. Qed.

Definition opt_ok (o : str) : bool := match o with [] => false | _ => negb (ends_with_plus o) end.

Lemma ends_with_plus_app a b : b <> [] -> ends_with_plus (a ++ b) = ends_with_plus b.
Proof.
  intros Hb. unfold ends_with_plus. rewrite rev_app_distr. destruct (rev b) eqn:E; [|reflexivity].
  exfalso. apply Hb. rewrite <- (rev_involutive b), E. reflexivity.
Qed.

Lemma plus_list_S f add s : plus_list (S f) add s = true ->
  exists a tail, s = a ++ tail /\ In a add /\ a <> [] /\
    (tail = [] \/ exists rest, tail = plus :: rest /\ plus_list f add rest = true).
Proof.
  cbn [plus_list]. intros H. apply existsb_exists in H as [a [Ha H]]. destruct a as [|a0 a']; [discriminate|].
  destruct (prefix _ s) as [tail|] eqn:Ep; [|discriminate]. exists (a0 :: a'), tail.
  repeat split; [now apply prefix_app|exact Ha|discriminate|]. destruct tail as [|c rest]; [now left|right].
  apply andb_true_iff in H as [Hc H]. apply Z.eqb_eq in Hc as ->. eauto.
Qed.

Lemma plus_list_nonempty f add s : plus_list f add s = true -> s <> [].
Proof.
  destruct f; [discriminate|]. intros H. apply plus_list_S in H as (a & tail & -> & _ & Hne & _).
  destruct a; [congruence|discriminate].
Qed.

Lemma plus_list_no_trailing_plus add : forallb opt_ok add = true ->
  forall f s, plus_list f add s = true -> ends_with_plus s = false.
Proof.
  intros Hok. induction f as [|f IH]; intros s H; [discriminate|].
  apply plus_list_S in H as (a & tail & -> & Ha & Hne & [->|(rest & -> & H)]).
  - rewrite app_nil_r. rewrite forallb_forall in Hok. apply Hok in Ha. destruct a; [congruence|].
    now apply negb_true_iff in Ha.
  - rewrite ends_with_plus_app by discriminate. change (plus :: rest) with ([plus] ++ rest).
    rewrite ends_with_plus_app; [apply IH, H|apply plus_list_nonempty in H; exact H].
Qed.

Lemma segs_fuel_mono add : forall f s, segs f add s = true -> forall f', (f <= f')%nat -> segs f' add s = true.
Proof.
  induction f as [|f IH]; intros s H f' Hle.
  - destruct s; [destruct f'; reflexivity|discriminate].
  - destruct s as [|c s]; [destruct f'; reflexivity|]. destruct f' as [|f']; [lia|].
    cbn [segs] in *. eapply existsb_mono; [|exact H]. intros o _ Ho. destruct o; [discriminate|].
    destruct (prefix (z :: o) (c :: s)); [|discriminate]. apply IH; [exact Ho|lia].
Qed.

Lemma segs_cons f add o rest :
  In o ([plus] :: add) -> o <> [] -> segs f add rest = true -> segs (S f) add (o ++ rest) = true.
Proof.
  intros Ho Hne H. destruct o as [|c o]; [congruence|]. cbn [app segs]. apply existsb_exists.
  exists (c :: o). split; [exact Ho|]. change (c :: o ++ rest) with ((c :: o) ++ rest). now rewrite prefix_self.
Qed.

Lemma plus_list_segs add f : forall s, plus_list f add s = true -> segs (length s) add s = true.
Proof.
  induction f as [|f IH]; intros s H; [discriminate|].
  apply plus_list_S in H as (a & tail & -> & Ha & Hne & Ht).
  apply (segs_fuel_mono add (S (length tail))); [|rewrite app_length; destruct a; [congruence|cbn; lia]].
  apply segs_cons; [now right|exact Hne|]. destruct Ht as [->|(rest & -> & H)]; [reflexivity|].
  apply (segs_cons _ _ [plus]); [now left|discriminate|apply IH, H].
Qed.

Lemma doc_implies_impl excl add s :
  forallb opt_ok add = true -> forallb opt_ok excl = true ->
  doc_categorical excl add s = true -> match_categorical excl add s = true.
Proof.
  intros Ha He. apply existsb_mono. intros body _ Hb. unfold body_doc in Hb. unfold body_impl.
  destruct body as [|b0 b']; [discriminate|]. apply orb_true_iff in Hb as [Hb|Hb].
  - (* an exclusive option *)
    rewrite Hb. cbn [orb]. rewrite andb_true_r. apply existsb_exists in Hb as [e [Hin Heq]].
    apply str_eqb_eq in Heq as <-. rewrite forallb_forall in He. exact (He _ Hin).
  - rewrite (plus_list_no_trailing_plus add Ha _ _ Hb), (plus_list_segs _ _ _ Hb). now rewrite orb_true_r.
Qed.

(* refutation witnesses for "exactly the documented language" *)
Definition A01 : str := [65; 48; 49]. Definition A02 : str := [65; 48; 50].
Lemma overaccepts_unseparated :
  match_categorical [] [A01; A02] (A01 ++ A02) = true /\ doc_categorical [] [A01; A02] (A01 ++ A02) = false.
Proof. vm_compute. split; reflexivity. Qed.
Lemma overaccepts_leading_plus :
  match_categorical [] [A01; A02] (plus :: A01) = true /\ doc_categorical [] [A01; A02] (plus :: A01) = false.
Proof. vm_compute. split; reflexivity. Qed.

(* introspection: a unit containing '|' is split in two *)
Lemma get_units_refuted :
  get_units (regex_number_str [[97; 124; 98]] false false) = Some [[97]; [98]].
Proof. vm_compute. reflexivity. Qed.
Lemma get_units_example :
  get_units (regex_number_str [[107; 103]; [76; 47; 104]; [37]] false false) = Some [[107; 103]; [76; 47; 104]; [37]].
Proof. vm_compute. reflexivity. Qed.
