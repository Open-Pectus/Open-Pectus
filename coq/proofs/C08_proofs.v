(* C08: the safe values survive what leaves them alone (safe_vals, safe_hw: exemption lists grow, an assignment exempts
   its output), and in every reachable state the non-strict mon8 accepts the trace and the engine keeps what the
   monitor's state promises: R8, kept by every primitive. *)
From Coq Require Import ZArith List Bool Arith Lia.
From OP Require Import lib.Obs model.Eng model.EngRun model.C08 proofs.Eng_nf proofs.Eng_prims.
Import ListNotations.
Open Scope Z_scope.

Lemma mon8_app st sf : app_law (mon8 st sf).
Proof. now apply (app_law_step (ev8 st sf)). Qed.

Lemma safe_after_apply sf : forall o i ex, safe_vals i ex sf (snd (safe_from i sf o)) = true.
Proof.
  induction sf as [|s sf IH]; intros o i ex; [destruct o; reflexivity|].
  destruct o as [|v o]; [reflexivity|]. cbn [safe_from].
  specialize (IH o (S i) ex). destruct (safe_from (S i) sf o) as [c o'']. cbn [snd] in IH.
  destruct s as [x|]; cbn [snd safe_vals]; rewrite IH; [rewrite Z.eqb_refl, orb_true_r|]; reflexivity.
Qed.

Lemma memn_cons k j ex : memn k (j :: ex) = Nat.eqb k j || memn k ex.
Proof. reflexivity. Qed.

Lemma safe_hw_mono sf : forall h i ex ex', (forall k, memn k ex = true -> memn k ex' = true) ->
  safe_hw i ex sf h = true -> safe_hw i ex' sf h = true.
Proof.
  induction sf as [|s sf IH]; intros h i ex ex' M H; [destruct h; reflexivity|].
  destruct h as [|v h]; [reflexivity|]. cbn [safe_hw] in *. apply andb_prop in H as [H1 H2].
  rewrite (IH _ _ _ _ M H2), andb_true_r. destruct s as [x|]; [|reflexivity].
  apply orb_prop in H1 as [H1|H1]; [rewrite (M _ H1); reflexivity|rewrite H1; apply orb_true_r].
Qed.

Lemma safe_hw_map sf : forall o i ex, safe_hw i ex sf (map Some o) = safe_vals i ex sf o.
Proof.
  induction sf as [|s sf IH]; intros o i ex; [destruct o; reflexivity|].
  destruct o as [|v o]; [reflexivity|]. cbn [map safe_hw safe_vals]. now rewrite IH.
Qed.

Lemma safe_vals_mono sf o i ex ex' : (forall k, memn k ex = true -> memn k ex' = true) ->
  safe_vals i ex sf o = true -> safe_vals i ex' sf o = true.
Proof. rewrite <- !safe_hw_map. apply safe_hw_mono. Qed.

Lemma safe_upd sf : forall o i j v ex, safe_vals i ex sf o = true ->
  safe_vals i ((i + j)%nat :: ex) sf (upd_nth o j v) = true.
Proof.
  induction sf as [|s sf IH]; intros o i j v ex H; [destruct o, j; reflexivity|].
  destruct o as [|w o]; [reflexivity|]. cbn [safe_vals] in H. apply andb_prop in H as [H1 H2].
  destruct j as [|j]; cbn [upd_nth safe_vals].
  - rewrite Nat.add_0_r. apply andb_true_intro. split.
    + destruct s; [|reflexivity]. rewrite memn_cons, Nat.eqb_refl. reflexivity.
    + apply (safe_vals_mono sf o (S i) ex); [|exact H2]. intros k Hk. rewrite memn_cons, Hk. apply orb_true_r.
  - apply andb_true_intro. split.
    + destruct s as [x|]; [|reflexivity]. rewrite memn_cons. apply orb_prop in H1 as [H1|H1];
        [rewrite H1, orb_true_r; reflexivity|rewrite H1; apply orb_true_r].
    + replace (i + S j)%nat with (S i + j)%nat by lia. apply IH. exact H2.
Qed.

Section C08.
  Variable safe : list (option Z).
  Variable overlaps : list (list nat).

  (* A record over the three fields it reads, not over e: for a primitive that leaves them alone promises8 e' s is
     convertible with promises8 e s, which closes the quiet cases of R8_prim. *)
  Record promises (st : bool) (o : list Z) (h : list (option Z)) (s : st8) : Prop := {
    q_act : st = true -> active s = true;
    q_idle_act : active s = true -> idle_ok s = false;
    q_tags : forall ex w, pausing s = Some (ex, w) -> safe_vals 0 ex safe o = true;
    q_idle : idle_ok s = true -> safe_hw 0 [] safe h = true;
    q_hw : forall ex, pausing s = Some (ex, true) -> safe_hw 0 ex safe h = true }.
  Definition promises8 (e : E) : st8 -> Prop := promises (started e) (outs e) (hw e).
  Definition R8 : E -> Prop := tracks (mon8 false safe) st_boot promises8.

  Lemma R8_started e e' r : trace e' = trace e ++ [EStarted r] -> R8 e -> R8 e'.
  Proof.
    intros T. apply (tracks_step _ (mon8_app false safe) _ _ _ _ _ T). intros s _. eexists. split; [reflexivity|].
    split; cbn [active idle_ok pausing]; try reflexivity; discriminate.
  Qed.

  (* l: what the image write after the end of the run appends *)
  Lemma R8_ended e e' l s' : trace e' = trace e ++ EStoppedRun :: l ->
    mon8 false safe {| active := false; idle_ok := false; pausing := None |} l = Some s' ->
    active s' = false -> pausing s' = None -> started e' = false ->
    (idle_ok s' = true -> safe_hw 0 [] safe (hw e') = true) -> R8 e -> R8 e'.
  Proof.
    intros T M A P S H. apply (tracks_step _ (mon8_app false safe) _ _ _ _ _ T). intros s _. exists s'. split; [exact M|].
    unfold promises8. rewrite S. split; rewrite ?A, ?P; try discriminate. exact H.
  Qed.

  Lemma R8_write e : R8 e -> R8 (write_image e).
  Proof.
    destruct (write_image_cases e) as [->|[Es [[_ ->]|[_ [_ ->]]]]]; [exact id| |].
    2: eapply (tracks_quiet _ (mon8_app false safe)); try reflexivity; exact (fun _ H => H).
    eapply (tracks_step _ (mon8_app false safe)); [reflexivity|]. intros s [A B C D F].
    specialize (A Es). specialize (B A). cbn [mon8 ev8]. rewrite A. cbn [negb]. destruct (pausing s) as [[ex w]|] eqn:Ep.
    - rewrite (C ex w eq_refl). eexists. split; [reflexivity|].
      split; cbn [active idle_ok pausing]; rewrite ?B; try discriminate; try reflexivity.
      + intros ex' w' [= <- _]. exact (C ex w eq_refl).
      + intros ex' [= <-]. cbn [hw_write emit set_io hw]. rewrite safe_hw_map. exact (C ex w eq_refl).
    - exists s. split; [reflexivity|]. split; rewrite ?A, ?B, ?Ep; try discriminate; reflexivity.
  Qed.

  Lemma R8_out e u i v : R8 e -> R8 (set_out_by u e i v).
  Proof.
    eapply (tracks_step _ (mon8_app false safe)); [reflexivity|]. intros s [A B C D F].
    cbn [mon8 ev8 negb]. rewrite orb_true_r. eexists. split; [reflexivity|].
    split; cbn [active idle_ok pausing]; try assumption; destruct (pausing s) as [[ex0 w0]|]; try discriminate.
    - intros ex w [= <- <-]. apply (safe_upd safe (outs e) 0 i v ex0), (C ex0 w0 eq_refl).
    - intros ex [= <- ->]. apply (safe_hw_mono safe (hw e) 0 ex0), (F ex0 eq_refl). intros k Hk. rewrite memn_cons, Hk. apply orb_true_r.
  Qed.

  Lemma R8_unpause e : R8 e -> R8 (unpause_body e).
  Proof.
    rewrite unpause_body_eq. eapply (tracks_step _ (mon8_app false safe)); [reflexivity|]. intros s [A B C D F].
    eexists. split; [reflexivity|]. split; cbn [active idle_ok pausing]; try assumption; discriminate.
  Qed.

  Lemma R8_pause e : R8 e -> R8 (pause_begin safe e).
  Proof.
    rewrite pause_begin_eq. eapply (tracks_step _ (mon8_app false safe)); [reflexivity|]. intros s [A B C D F].
    eexists. split; [reflexivity|]. split; cbn [active idle_ok pausing]; try assumption.
    - intros ex w _. apply safe_after_apply.
    - intros ex Hx. destruct (pausing s) as [[ex0 w0]|]; [|discriminate]. apply F. exact Hx.
  Qed.

  Lemma R8_stop e : R8 e -> R8 (stop_core safe e).
  Proof.
    destruct (stop_core_cases safe e) as [->|[->|[_ ->]]]; rewrite stop_pre_eq.
    - now eapply R8_ended with (l := []).
    - eapply R8_ended with (l := [EHwWrite _]).
      1: cbn [stop_flags hw_write upd_flags emit set_io trace]; now rewrite <- app_assoc.
      1: cbn [mon8 ev8 active negb outs emit set_run set_sys set_trk set_io]; now rewrite safe_after_apply.
      1-3: reflexivity.
      intros _. cbn [stop_flags hw_write upd_flags emit set_run set_sys set_trk set_io hw outs]. rewrite safe_hw_map. apply safe_after_apply.
    - eapply R8_ended with (l := [EError]); try reflexivity; [|discriminate].
      cbn [stop_flags set_error_state upd_flags emit set_sys set_err trace]. now rewrite <- app_assoc.
  Qed.

  Lemma R8_prim e e' : prim safe e e' -> R8 e -> R8 e'.
  Proof.
    intros P. destruct P;
      try (autorewrite with eng_nf; apply tracks_same; [reflexivity|exact (fun _ H => H)]);
      try (autorewrite with eng_nf; eapply (tracks_quiet _ (mon8_app false safe));
           [reflexivity|reflexivity|exact (fun _ H => H)]).
    - apply R8_write.
    - apply R8_out.
    - apply R8_unpause.
    - apply R8_pause.
    - (* P_start *) now eapply R8_started.
    - apply R8_stop.
    - (* P_restart_stop *) now eapply R8_ended with (l := []).
    - (* P_restart_finish *) now eapply R8_started.
  Qed.

  Lemma boot_hw_safe e : safe_hw 0 [] safe (hw (boot safe e)) = true.
  Proof.
    rewrite boot_eq. cbn [hw_write emit set_io hw outs]. rewrite safe_hw_map. apply safe_after_apply.
  Qed.

  Lemma R8_boot n outs0 : R8 (boot safe (init n outs0)).
  Proof.
    pose proof (boot_hw_safe (init n outs0)) as D. rewrite boot_eq in *. exists st_after_boot. split.
    - cbn [hw_write emit set_io trace init app mon8 ev8 st_boot active negb outs]. now rewrite safe_after_apply.
    - split; cbn [st_after_boot active idle_ok pausing]; try discriminate. intros _. exact D.
  Qed.

  Theorem R8_reachable n outs0 ops :
    R8 (fold_left (fun e o => fst (step safe overlaps e o)) ops (boot safe (init n outs0))).
  Proof. apply (invariant_by_prims safe overlaps R8 R8_prim). apply R8_boot. Qed.
End C08.
