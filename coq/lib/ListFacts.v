(* Facts about lists, folds and the comparison functions of lib/Obs.v that several proof files share. *)
From Coq Require Import ZArith List Bool Arith Lia.
From OP Require Import lib.Obs.
Import ListNotations.

Lemma let_pair {A B C} (p : A * B) (f : A -> B -> C) : (let '(a, b) := p in f a b) = f (fst p) (snd p).
Proof. now destruct p. Qed.

Lemma fold_left_inv_in {S A} (P : S -> Prop) (f : S -> A -> S) l :
  (forall s a, In a l -> P s -> P (f s a)) -> forall s, P s -> P (fold_left f l s).
Proof.
  induction l as [|a l IH]; intros H s Hs; [exact Hs|].
  apply IH; [intros s0 a0 Ha; apply H; now right|apply H; [now left|exact Hs]].
Qed.

Lemma fold_left_inv {S A} (P : S -> Prop) (f : S -> A -> S) :
  (forall s a, P s -> P (f s a)) -> forall l s, P s -> P (fold_left f l s).
Proof. intros H l. apply fold_left_inv_in. intros s a _. apply H. Qed.

Lemma fold_left_inv_rest {S A} (P : S -> list A -> Prop) (f : S -> A -> S) :
  (forall s a l, P s (a :: l) -> P (f s a) l) -> forall l s, P s l -> P (fold_left f l s) [].
Proof. intros H l. induction l as [|a l IH]; intros s Hs; [exact Hs|]. apply IH, H, Hs. Qed.

Lemma fold_left_rel {S A} (R : S -> S -> Prop) (f : S -> A -> S) :
  (forall s, R s s) -> (forall a b c, R a b -> R b c -> R a c) -> (forall s a, R s (f s a)) ->
  forall l s, R s (fold_left f l s).
Proof. intros Hr Ht H l s. apply (fold_left_inv (R s)); [|apply Hr]. intros s' a Hs. exact (Ht _ _ _ Hs (H s' a)). Qed.

Lemma combine_map_r {A B} (f : A -> B) l : combine l (map f l) = map (fun a => (a, f a)) l.
Proof. induction l as [|a l IH]; cbn; [reflexivity|]. now rewrite IH. Qed.

Lemma find_unique {A} (P : A -> bool) l a :
  In a l -> P a = true -> (forall b, In b l -> P b = true -> b = a) -> find P l = Some a.
Proof.
  intros Hin Ha Hu. destruct (find P l) as [b|] eqn:E.
  - apply find_some in E as [H1 H2]. now rewrite (Hu b H1 H2).
  - now rewrite (find_none _ _ E a Hin) in Ha.
Qed.

Lemma forallb_rev {A} (p : A -> bool) l : forallb p (rev l) = forallb p l.
Proof.
  induction l as [|c l IH]; [reflexivity|]. cbn [rev forallb]. rewrite forallb_app, IH. cbn [forallb]. now rewrite andb_true_r, andb_comm.
Qed.

Lemma forallb_repeat {A} (p : A -> bool) x n : p x = true -> forallb p (repeat x n) = true.
Proof. intros H. induction n; [reflexivity|]. cbn [repeat forallb]. now rewrite H. Qed.

Lemma forallb2_forall {A B} (f : A -> B -> bool) (g : A -> list B) l :
  forallb (fun a => forallb (f a) (g a)) l = true <-> forall a b, In a l -> In b (g a) -> f a b = true.
Proof.
  rewrite forallb_forall. split; [intros H a b Ha; apply forallb_forall, H, Ha|].
  intros H a Ha. apply forallb_forall. intros b. now apply H.
Qed.

Lemma Forall_mp {A} (P Q : A -> Prop) l : Forall (fun a => P a -> Q a) l -> Forall P l -> Forall Q l.
Proof. intros F H. eapply Forall_impl; [|exact (Forall_and F H)]. intros a [X Y]. exact (X Y). Qed.

Lemma existsb_mono {A} (f g : A -> bool) l : (forall x, In x l -> f x = true -> g x = true) ->
  existsb f l = true -> existsb g l = true.
Proof. intros H E. apply existsb_exists in E as [x [Hx Hf]]. apply existsb_exists. exists x. auto. Qed.

Lemma existsb_eqb_In x l : existsb (Nat.eqb x) l = true <-> In x l.
Proof.
  rewrite existsb_exists. split; [intros [y [Hy E]]; apply Nat.eqb_eq in E; now subst|].
  intros H. exists x. split; [exact H|apply Nat.eqb_refl].
Qed.

Lemma filter_length_bound {A} (f : A -> bool) l : (length (filter f l) <= length l)%nat.
Proof. induction l as [|x l IH]; cbn; [lia|]. destruct (f x); cbn; lia. Qed.

Lemma filter_length_le {A} (f g : A -> bool) l : (forall x, f x = true -> g x = true) ->
  (length (filter f l) <= length (filter g l))%nat.
Proof.
  intros H. induction l as [|x l IH]; cbn; [lia|]. destruct (f x) eqn:Ef.
  - rewrite (H x Ef). cbn. lia.
  - destruct (g x); cbn; lia.
Qed.

Lemma filter_length_lt {A} (f g : A -> bool) l x : (forall y, f y = true -> g y = true) -> In x l -> f x = false -> g x = true ->
  (length (filter f l) < length (filter g l))%nat.
Proof.
  intros H Hin Hf Hg. apply in_split in Hin as (l1 & l2 & ->). rewrite !filter_app, !app_length. cbn [filter]. rewrite Hf, Hg.
  pose proof (filter_length_le f g l1 H). pose proof (filter_length_le f g l2 H). cbn [length]. lia.
Qed.

Lemma NoDup_snoc {A} (l : list A) x : NoDup l -> ~ In x l -> NoDup (l ++ [x]).
Proof.
  intros Hl Hx. apply NoDup_rev in Hl. rewrite <- (rev_involutive (l ++ [x])), rev_app_distr. apply NoDup_rev.
  constructor; [now rewrite <- in_rev|exact Hl].
Qed.

Lemma NoDup_map_filter {A B} (f : A -> B) (p : A -> bool) l : NoDup (map f l) -> NoDup (map f (filter p l)).
Proof.
  induction l as [|x l IH]; cbn; [auto|]. intros H. inversion H as [|? ? Hx Hl]; subst.
  destruct (p x); [|auto]. cbn. constructor; [|auto].
  rewrite in_map_iff in *. intros [y [E Hy]]. apply Hx. exists y. split; [exact E|]. now apply filter_In in Hy.
Qed.

Lemma NoDup_map_inj {A B} (f : A -> B) l x y : NoDup (map f l) -> In x l -> In y l -> f x = f y -> x = y.
Proof.
  induction l as [|a l IH]; cbn; [contradiction|]. intros Hnd Hx Hy E. inversion Hnd as [|? ? Hn Hnd']; subst.
  destruct Hx as [->|Hx], Hy as [->|Hy]; [reflexivity| | |now apply IH]; exfalso; apply Hn.
  - rewrite E. now apply in_map.
  - rewrite <- E. now apply in_map.
Qed.

Lemma list_eqb_eq {A} (eqb : A -> A -> bool) :
  (forall x y, eqb x y = true <-> x = y) -> forall a b, list_eqb eqb a b = true <-> a = b.
Proof.
  intros He. induction a as [|x a IH]; destruct b as [|y b]; cbn; try (split; congruence).
  rewrite andb_true_iff, He, IH. split; [intros [-> ->]; reflexivity|]. intros H; inversion H; auto.
Qed.

Lemma list_eqb_refl {A} (eqb : A -> A -> bool) : (forall x, eqb x x = true) -> forall l, list_eqb eqb l l = true.
Proof. intros Hr. induction l as [|x l IH]; cbn; [reflexivity|]. now rewrite Hr, IH. Qed.

Lemma str_eqb_eq a b : str_eqb a b = true <-> a = b.
Proof. apply list_eqb_eq. intros x y. apply Z.eqb_eq. Qed.

Lemma str_eqb_refl s : str_eqb s s = true.
Proof. apply list_eqb_refl, Z.eqb_refl. Qed.

Lemma option_eqb_eq {A} (eqb : A -> A -> bool) :
  (forall x y, eqb x y = true <-> x = y) -> forall a b, option_eqb eqb a b = true <-> a = b.
Proof. intros He [x|] [y|]; cbn; try (split; congruence). rewrite He. split; congruence. Qed.

Lemma option_eqb_refl {A} (eqb : A -> A -> bool) : (forall x, eqb x x = true) -> forall o, option_eqb eqb o o = true.
Proof. intros Hr [x|]; [apply Hr|reflexivity]. Qed.

Lemma pair_eqb_eq {A B} (ea : A -> A -> bool) (eb : B -> B -> bool) :
  (forall x y, ea x y = true <-> x = y) -> (forall x y, eb x y = true <-> x = y) ->
  forall a b, pair_eqb ea eb a b = true <-> a = b.
Proof.
  intros Ha Hb [a1 b1] [a2 b2]. unfold pair_eqb. cbn. rewrite andb_true_iff, Ha, Hb. split; [intros [-> ->]; reflexivity|].
  intros H; inversion H; auto.
Qed.
