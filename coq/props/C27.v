(* C27 Engine messages survive disconnects without loss or duplication. Statements only. *)
From Coq Require Import ZArith List Bool Arith.
From OP Require Import lib.Obs model.C27 proofs.C27_proofs.
Import ListNotations.
Open Scope Z_scope.

(* In EVERY state of the recovery state machine reachable by ANY sequence of posts, buffer-loop messages and ticks under
   ANY pattern of connect / transmission failures:
     - a transmission is only attempted with an engine id (no ProtocolException escapes),
     - nothing is stranded: in the Connected and Reconnected states the buffer is empty,
     - every buffered message carries its sequence number,
     - the buffer loop is never alive in a steady state. *)
Theorem C27_reachable_states : forall ops,
  let r := fold_left step ops init in
  (has_id (st r) = true -> eid r = true) /\ (steady (st r) = true -> buf r = []) /\ crashed r = false /\
  Forall (fun m => exists k, mseq m = Some k /\ (k <= seqn r)%nat) (buf r) /\ (tk r = TBuf -> steady (st r) = false).
Proof.
  intros ops r. pose proof (Good_reachable ops : Good r) as G.
  split; [exact (g_eid r G)|split; [exact (Good_buf r G)|split; [exact (g_crash r G)|split; [exact (g_seq r G)|exact (Good_tk r G)]]]].
Qed.
Print Assumptions C27_reachable_states.

(* No loss: a message the runner accepts (posted in any state but Started / Stopped, or produced by the live buffer
   loop) is, when that operation ends, transmitted or in the buffer; and a buffered message is, after ANY further
   operation, transmitted in that operation or still in the buffer. By induction every accepted message is transmitted
   at some point or still buffered -- and by the previous theorem the buffer is empty once the runner reports
   Reconnected. *)
Theorem C27_accepted_message_not_lost : forall ops l run k rs,
  let r := fold_left step ops init in
  up (st r) = true -> lab_in l (step r (OPost l run k rs)).
Proof. intros ops l run k rs r U. apply accepted_not_lost; [apply Good_reachable|exact U]. Qed.
Print Assumptions C27_accepted_message_not_lost.

Theorem C27_loop_message_not_lost : forall ops l run k,
  let r := fold_left step ops init in tk r = TBuf -> lab_in l (step r (OBuf l run k)).
Proof. intros ops l run k r T. apply buffered_by_loop_not_lost; [apply Good_reachable|exact T]. Qed.
Print Assumptions C27_loop_message_not_lost.

Theorem C27_buffered_message_not_lost : forall ops o m,
  let r := fold_left step ops init in In m (buf r) -> lab_in (label m) (step r o).
Proof. intros ops o m r H. apply buffered_stays_or_goes_out; [apply Good_reachable|exact H]. Qed.
Print Assumptions C27_buffered_message_not_lost.

(* The ORDER clause (run data buffered for a run reaches the aggregator before that run's stop notification) is REFUTED
   for the faithful model: while CatchingUp a newly posted message is transmitted at once although older messages are
   still buffered. Known finding; the same sequence fails on the real EngineRunner. *)
Definition w_order : list op :=
  [OTick []; OPost 1 0 KData [Lost]; OTick []; OTick []; OTick []; OPost 2 0 KStop []; OTick []; OTick []].
Theorem C27_order_refuted : holds_with true w_order (run w_order) = false /\ holds_with false w_order (run w_order) = true.
Proof. vm_compute. split; reflexivity. Qed.
Print Assumptions C27_order_refuted.

(* PARTIAL: proved are the safety invariants and step-wise no-loss above; "delivered more than once only after a failed
   attempt", "one sequence number across resends" and "distinct messages, distinct numbers" are clauses of the Coq monitor
   evaluated on the real runner's transmissions (and on the model through the correspondence), not separate theorems. *)
