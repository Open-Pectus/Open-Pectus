(* C14 Injected code runs once in the current scope (interpreter level). Statements only. *)
From Coq Require Import ZArith List Bool Arith.
From OP Require Import lib.Obs model.Interp model.InterpRun model.C14 proofs.Interp_inv proofs.C05_proofs proofs.Interp_fields proofs.C02_proofs proofs.C14_proofs proofs.Interp_stack proofs.C02_order proofs.C14_order.
Import ListNotations.
Open Scope Z_scope.

(* Injecting code does not change which lines have started or completed: the injection registers the root of the snippet
   and touches nothing else. *)
Theorem C14_injection_touches_no_line : forall p l s m,
  started (st (fold_left (inject p) l s) m) = started (st s m) /\ completed (st (fold_left (inject p) l s) m) = completed (st s m).
Proof. intros p l s m. destruct (injects_only_register p l s m) as [i ->]. split; reflexivity. Qed.
Print Assumptions C14_injection_touches_no_line.
Theorem C14_injection_changes_only_its_root : forall p s r m, m <> r -> st (inject p s r) m = st s m.
Proof. exact inject_other. Qed.
Print Assumptions C14_injection_changes_only_its_root.

(* Injected code runs once: in EVERY run with any injections at any ticks, an instruction outside Alarm and Macro bodies -- a method
   line or a line of a snippet -- that has started stays started and one that has completed stays completed: its `started`
   flag rises at most once, it never runs a second time. *)
Theorem C14_lines_run_at_most_once_with_injections : forall p ts main s now m,
  under_alarm p m = false -> C02_proofs.is_blank p m = false ->
  Forall (fun s' => (started (st s m) = true -> started (st s' m) = true) /\ (completed (st s m) = true -> completed (st s' m) = true))
         (C14_proofs.states p main s now ts).
Proof. intros p ts. exact (run_with_injections_monotone p ts). Qed.
Print Assumptions C14_lines_run_at_most_once_with_injections.

(* Scope. Over whole runs with injections at any ticks (injected roots have no parent line: roots_ok_b, evaluated by the
   monitor on every case, like wf_b), outside Alarm and Macro bodies a started line -- of the method or of a snippet -- lies
   in a scope (parent line) that has started: the lines of a snippet run inside the snippet's own scopes, and no injection
   makes a method line start outside its scope. (Stack invariant of C02 carried through the injections: an injection adds one
   generator, the visit of a parentless root, and changes no started flag.) *)
Theorem C14_started_lines_lie_in_started_scopes_with_injections : forall p ts, wf_b p = true -> C14_order.roots_ok_b p ts = true ->
  Forall (fun s => forall c q, n_parent (nd p c) = Some q -> C02_order.plain p c = true -> C02_order.plain p q = true ->
                               started (st s c) = true -> started (st s q) = true)
         (C14_proofs.states p [FVisit 0] (InterpRun.init p) 0 ts).
Proof. intros p ts W. exact (scope_with_injections p W ts). Qed.
Print Assumptions C14_started_lines_lie_in_started_scopes_with_injections.

(* the same for the other two scope clauses: with injections at any ticks, a Watch body -- of the method or of a snippet --
   runs only after the Watch was activated, and a Block body only once the block took the lock *)
Theorem C14_watch_bodies_run_only_after_activation_with_injections : forall p ts, wf_b p = true -> C14_order.roots_ok_b p ts = true ->
  Forall (fun s => forall c q, n_parent (nd p c) = Some q -> n_kind (nd p q) = KWatch ->
                               C02_order.plain p c = true -> C02_order.plain p q = true ->
                               started (st s c) = true -> activated (st s q) = true)
         (C14_proofs.states p [FVisit 0] (InterpRun.init p) 0 ts).
Proof. intros p ts W. exact (activation_with_injections p W ts). Qed.
Print Assumptions C14_watch_bodies_run_only_after_activation_with_injections.
Theorem C14_block_bodies_run_only_with_the_lock_with_injections : forall p ts, wf_b p = true -> C14_order.roots_ok_b p ts = true ->
  Forall (fun s => forall c q, n_parent (nd p c) = Some q -> n_kind (nd p q) = KBlock ->
                               C02_order.plain p c = true -> C02_order.plain p q = true -> started (st s c) = true ->
                               lock_acquired (st s q) = true \/ block_ended (st s q) = true \/ completed (st s q) = true)
         (C14_proofs.states p [FVisit 0] (InterpRun.init p) 0 ts).
Proof. intros p ts W. exact (lock_with_injections p W ts). Qed.
Print Assumptions C14_block_bodies_run_only_with_the_lock_with_injections.

(* PARTIAL (interpreter level). Decided by the Coq monitor on the real interpreter: a snippet is inert before its injection;
   with snippets that have no Block / End block(s) the method lines are, tick by tick, exactly where the model's run of the
   same ticks WITHOUT the injections has them; `End block` inside an injected Block ends that block (REFUTED -- known
   finding: get_locked_blocks only sees blocks of the method tree, so an injected Block can never be ended, and an injected
   End block ends the METHOD's innermost block). Not modelled: Pause / Hold (the engine does not tick the interpreter then),
   the command manager's side of injected UOD commands, and live edits, which drop unfinished injected code: the injected
   node is not part of the new program, so its interrupt cannot be re-created (same defect family as C01). *)
Example C14_injected_block_cannot_be_ended_refuted :
  let mk := fun k par ch => {| n_kind := k; n_parent := par; n_children := ch; n_thr := false |} in
  let p := [mk KProgram None [1%nat]; mk KMark (Some 0%nat) [];
            mk KInjected None [3%nat]; mk KBlock (Some 2%nat) [4; 5]%nat; mk KMark (Some 3%nat) []; mk KEndBlock (Some 3%nat) []] in
  let t := {| t_complete := []; t_dt := 1; t_thr_wait := []; t_cond_true := []; t_cond_err := [] |} in
  let ts := [{| j_tick := t; j_inject := [] |}; {| j_tick := t; j_inject := [2%nat] |}] ++ repeat {| j_tick := t; j_inject := [] |} 12 in
  let last := nth 13 (run (p, ts)) (view0 p) in
  completed (C14.vst last 5) = true /\ block_ended (C14.vst last 3) = false /\ completed (C14.vst last 2) = false
  /\ holds_b (p, ts) (run (p, ts)) = false.
Proof. vm_compute. repeat split; reflexivity. Qed.
