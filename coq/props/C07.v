(* C07 Method clocks advance only while running. Statements only. *)
From Coq Require Import ZArith List Bool Arith.
From OP Require Import lib.Obs model.Eng model.EngRun model.C07 proofs.Eng_prims proofs.C07_proofs.
Import ListNotations.
Open Scope Z_scope.

(* In EVERY state reachable from engine start by ANY sequence of operations (all control commands valid or not, timed
   Pause/Hold, Stop, Restart, UOD commands, faults, interpreter errors, arbitrary increments) the event trace satisfies
   the clock discipline and the discipline's tracked values ARE the Process Time and Run Time tags:
     - both are 0 when a run starts (Start and Restart alike),
     - nothing but update_calculated_tags moves them during a run,
     - each update adds the increment to Process Time iff the System State is Running and to Run Time iff a run is
       active (not Stopped, not Restarting), and leaves Block Time and Scope Time unchanged unless the state is Running
       (so not while Paused, Holding, Restarting, nor in an error pause). *)
Theorem C07_clock_discipline : forall safe overlaps n outs0 ops,
  let e := fold_left (fun e o => fst (step safe overlaps e o)) ops (boot safe (init n outs0)) in
  mon7 (0, 0) (trace e) = Some (ptime e, rtime e).
Proof. intros safe overlaps n outs0 ops. exact (R7_reachable safe overlaps n outs0 ops). Qed.
Print Assumptions C07_clock_discipline.

(* the clauses one by one, for every engine state and increment *)
Theorem C07_process_time_only_running : forall e dt,
  ptime (update_clocks e dt) = if sys_eqb (sys e) Running then ptime e + dt else ptime e.
Proof. intros e dt. apply update_clocks_law. Qed.
Print Assumptions C07_process_time_only_running.

Theorem C07_run_time_only_active : forall e dt,
  rtime (update_clocks e dt) = if active (sys e) then rtime e + dt else rtime e.
Proof. intros e dt. apply update_clocks_law. Qed.
Print Assumptions C07_run_time_only_active.

Theorem C07_block_scope_only_running : forall e dt, sys e <> Running ->
  btime (update_clocks e dt) = btime e /\ stime (update_clocks e dt) = stime e.
Proof. intros e dt. apply update_clocks_law. Qed.
Print Assumptions C07_block_scope_only_running.

Theorem C07_zero_at_start : forall e,
  (ptime (start_body e) = 0 /\ rtime (start_body e) = 0) /\ (ptime (restart_finish e) = 0 /\ rtime (restart_finish e) = 0).
Proof. intros e. split; [apply start_zero|apply restart_zero]. Qed.
Print Assumptions C07_zero_at_start.

(* never decreasing: an update that obeys the rule with a non-negative increment does not decrease either clock *)
Theorem C07_monotone : forall s dt b a, clock_rule s dt b a = true -> 0 <= dt ->
  nth 0 b 0 <= nth 0 a 0 /\ nth 1 b 0 <= nth 1 a 0.
Proof. exact clock_rule_monotone. Qed.
Print Assumptions C07_monotone.

(* the monitor rejects the pre-fix behaviours: clocks carried over a Restart, Block Time advancing while Holding *)
Example C07_monitor_rejects :
  mon7 (0, 0) [EStarted 0; EClock Running 1 [0; 0; 0; 0] [1; 1; 1; 1]; EStoppedRun; EStarted 1;
               EClock Running 1 [1; 1; 0; 0] [2; 2; 1; 1]] = None
  /\ mon7 (0, 0) [EStarted 0; EClock Holding 1 [0; 0; 0; 0] [0; 1; 1; 1]] = None
  /\ mon7 (0, 0) [EStarted 0; EClock Holding 1 [0; 0; 0; 0] [0; 1; 0; 0]; EClock Running 2 [0; 1; 0; 0] [2; 3; 2; 2]] = Some (2, 3).
Proof. vm_compute. repeat split. Qed.
