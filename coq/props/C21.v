(* C21 Unit-aware comparisons are exact, consistent and symmetric. Statements only. *)
From Coq Require Import ZArith QArith List Bool Arith.
From OP Require Import lib.Obs gen.Units model.C21 proofs.C21_proofs.
Import ListNotations.
Open Scope Q_scope.

(* Whether two units may be compared does not depend on their order -- for every unit table (gen/Units.v is regenerated
   from units.py on every run) and all units, supported or not. (Before the /repo fix only the first unit's compatibility
   list was consulted: '%' lists 'vol%', 'vol%' lists only itself.) *)
Theorem C21_comparability_is_symmetric : forall a b, comparable a b = comparable b a.
Proof. exact comparable_sym. Qed.
Print Assumptions C21_comparability_is_symmetric.

(* The six operators are mutually consistent for ALL inputs -- any units, any decimals, whatever pint's conversion returns
   (exact or rounded): compare_values either raises for all six, or answers as ONE three-way comparison does, so exactly
   one of < = > holds, != is the negation of =, <= is < or =, >= is > or =. (With the /repo fix: the second value is
   converted to the first value's unit once, for every operator.) *)
Theorem C21_operators_answer_as_one_comparison : forall c,
  compare_all c = all_raise \/ exists k, compare_all c = six_of k.
Proof. exact compare_all_consistent. Qed.
Print Assumptions C21_operators_answer_as_one_comparison.
Theorem C21_one_comparison_obeys_the_laws : forall k, let s := six_of k in
  ((r_lt s = RT /\ r_eq s = RF /\ r_gt s = RF) \/ (r_lt s = RF /\ r_eq s = RT /\ r_gt s = RF) \/ (r_lt s = RF /\ r_eq s = RF /\ r_gt s = RT))
  /\ (r_ne s = RT <-> r_eq s = RF) /\ (r_le s = RT <-> r_lt s = RT \/ r_eq s = RT) /\ (r_ge s = RT <-> r_gt s = RT \/ r_eq s = RT).
Proof. exact six_of_laws. Qed.
Print Assumptions C21_one_comparison_obeys_the_laws.

(* Exactness, same unit or no unit: the comparison is the exact comparison of the two decimals, hence of the physical
   quantities (value * f + o with f > 0), for all decimals of any length. *)
Theorem C21_same_unit_exact : forall c,
  comparable (c_ua c) (c_ub c) = true -> same_unit c = true ->
  0 < c_fa c -> c_fb c == c_fa c -> c_ob c == c_oa c ->
  compare_all c = spec c.
Proof. intros c _. apply same_unit_exact. Qed.
Print Assumptions C21_same_unit_exact.

(* Exactness, different units of one quantity -- PARTIAL: whenever pint's conversion of the second value into the first
   value's unit is exact (the converted decimal, taken back to the reference unit, IS the second physical quantity), all six
   operators give the result of comparing the physical quantities; offset units (degC, degF, K) included. *)
Theorem C21_exact_conversion_exact_comparison_partial : forall c,
  comparable (c_ua c) (c_ub c) = true -> same_unit c = false -> c_dim_ok c = true ->
  0 < c_fa c ->
  val (c_b_in_a c) * c_fa c + c_oa c == phys_b c ->
  compare_all c = spec c.
Proof. exact exact_conversion_gives_spec. Qed.
Print Assumptions C21_exact_conversion_exact_comparison_partial.

(* the hypotheses are satisfiable: 90 min vs 1.5 h, conversion exact *)
Example C21_nonvacuous :
  let c := {| c_ua := Some 1%nat; c_ub := Some 2%nat; c_a := {| d_m := 90; d_k := 0 |}; c_b := {| d_m := 15; d_k := 1 |};
              c_dim_ok := true; c_b_in_a := {| d_m := 900; d_k := 1 |}; c_fa := 60; c_oa := 0; c_fb := 3600; c_ob := 0 |} in
  comparable (c_ua c) (c_ub c) = true /\ same_unit c = false /\ val (c_b_in_a c) * c_fa c + c_oa c == phys_b c
  /\ r_eq (compare_all c) = RT.
Proof. vm_compute. repeat split; reflexivity. Qed.

(* REFUTED at full strength (known finding): the conversion is Decimal arithmetic with 28 significant digits; where the
   factor does not terminate (1/3600, 5/9, ...) a value that differs from the converted one only beyond that precision
   compares equal: 13461.3 L/d vs 560.8875000000000000000000000001 L/h. The behaviour before the fix, for the record:
   with pint's actual conversions of 1 L/h and 24 L/d, both = and < held *)
Example C21_old_operators_disagreed :
  let c := {| c_ua := Some 22%nat; c_ub := Some 24%nat; c_a := {| d_m := 1; d_k := 0 |}; c_b := {| d_m := 24; d_k := 0 |};
              c_dim_ok := true; c_b_in_a := {| d_m := 1; d_k := 0 |}; c_fa := 1; c_oa := 0; c_fb := 1; c_ob := 0 |} in
  let r := {| o_a_root := {| d_m := 2777777777777777777777777778; d_k := 34 |};
              o_b_root := {| d_m := 2777777777777777777777777779; d_k := 34 |}; o_a_in_b := {| d_m := 24; d_k := 0 |} |} in
  r_eq (compare_all_old c r) = RT /\ r_lt (compare_all_old c r) = RT.
Proof. vm_compute. split; reflexivity. Qed.

(* REFUTED at full strength, with pint's actual conversion as the oracle (known finding): 0.004367 min IS 262.02 ms, but
   pint converts 262.02 ms to 0.004367000000000000000000000001 min, so compare_values answers '<' and not '=' *)
Example C21_exactness_refuted :
  let c := {| c_ua := Some 1%nat; c_ub := Some 3%nat; c_a := {| d_m := 4367; d_k := 6 |}; c_b := {| d_m := 26202; d_k := 2 |};
              c_dim_ok := true; c_b_in_a := {| d_m := 4367000000000000000000000001; d_k := 30 |};
              c_fa := 60; c_oa := 0; c_fb := 1 # 1000; c_ob := 0 |} in
  r_eq (spec c) = RT /\ r_eq (compare_all c) = RF /\ r_lt (compare_all c) = RT.
Proof. vm_compute. repeat split; reflexivity. Qed.
