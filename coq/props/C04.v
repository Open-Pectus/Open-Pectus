(* C04 Watch runs once after its condition holds; Alarm re-arms. Statements only. *)
From Coq Require Import ZArith List Bool Arith.
From OP Require Import lib.Obs model.Interp model.InterpRun model.C02 model.C04 proofs.Interp_inv proofs.C05_proofs proofs.Interp_fields proofs.C02_proofs model.C05 proofs.C05_pending proofs.Interp_stack proofs.C02_order proofs.C04_order model.C12 proofs.C12_proofs proofs.C12_runs.
Import ListNotations.
Open Scope Z_scope.

(* For EVERY tick of the interpreter model, from any state, with any environment: a Watch or Alarm that is activated after
   the tick was activated before it, or had been forced, or its condition evaluated true -- without raising -- in this
   tick. Nothing else in the interpreter (other generators, resets, block endings, errors) sets the activation flag. *)
Theorem C04_activation_only_when_condition_holds : forall p e rounds fuel main s main' s' raised,
  tick p rounds fuel e main s = Some (main', s', raised) ->
  forall m, activated (st s' m) = true ->
    activated (st s m) = true \/ forced (st s m) = true \/ C e m = true.
Proof.
  intros p e rounds fuel main s main' s' raised T m H.
  destruct (tick_activation p e rounds fuel main s main' s' raised T m) as [_ K]. now apply K.
Qed.
Print Assumptions C04_activation_only_when_condition_holds.

(* a Watch outside Alarm and Macro bodies runs its body at most once: its lines start at most once (C02's theorem, restated) *)
Theorem C04_watch_body_lines_start_once : forall p ts main s now m,
  C02_proofs.under_alarm p m = false -> C02_proofs.is_blank p m = false ->
  Forall (fun s' => (started (st s m) = true -> started (st s' m) = true) /\
                    (completed (st s m) = true -> completed (st s' m) = true))
         (states p main s now ts).
Proof. intros p ts. exact (run_monotone p ts). Qed.
Print Assumptions C04_watch_body_lines_start_once.

(* "Neither runs after the block that contains it has ended": after EVERY tick of EVERY run no Watch / Alarm whose block has
   ended has a handler left in the interrupt map (C05's theorem, restated for this clause): its condition is never
   evaluated and its body never entered again. (The lines of a body that was already running when the block ended stop at
   the next line: _visit_children tests the ended block before every child -- decided by the monitor, below.) *)
Theorem C04_no_handler_left_after_the_block_ended : forall p ts, C05.tree_ok_b p = true ->
  Forall (fun v => forall m, In m (v_ints v) ->
                   existsb (fun a => is_block p a && block_ended (C05.vst v a)) (ancestors p m) = false)
         (InterpRun.run (p, ts)).
Proof.
  intros p ts H. eapply Forall_impl; [|exact (no_pending_always p (tree_ok_tree p H) ts _ _ _ (I_init p))].
  intros v Hv m Hm. unfold pending_ok, no_pending_in_ended in Hv.
  rewrite forallb_forall in Hv. specialize (Hv m Hm). now apply negb_true_iff in Hv.
Qed.
Print Assumptions C04_no_handler_left_after_the_block_ended.

(* "The body runs only after the condition held": in EVERY state after every tick of EVERY run, for every well-formed
   method tree (wf_b, evaluated by the monitor on every generated method), outside Alarm and Macro bodies a started line
   whose parent is a Watch has an ACTIVATED parent. With the first theorem (activation only when the condition evaluated
   true or the Watch was forced): no line of a Watch body runs unless the Watch's condition held. Proof: stack invariant --
   the children loop of a Watch is pushed only by the frame that saw `activated`, and outside Alarm / Macro bodies nothing
   withdraws an activation. *)
Theorem C04_watch_body_runs_only_after_activation : forall p ts, wf_b p = true ->
  Forall (fun s => forall c q, n_parent (nd p c) = Some q -> n_kind (nd p q) = KWatch ->
                               C02_order.plain p c = true -> C02_order.plain p q = true ->
                               started (st s c) = true -> activated (st s q) = true)
         (states p [FVisit 0] (InterpRun.init p) 0 ts).
Proof. exact watch_body_runs_only_after_activation. Qed.
Print Assumptions C04_watch_body_runs_only_after_activation.

(* the same in runs with cancel / force requests at any ticks (run function of model/C12.v): requests change no started
   or activated flag and no generator; and "nor after it was cancelled": from the state in which a Watch is cancelled and not
   activated on, no line of its body is started *)
Theorem C04_watch_body_runs_only_after_activation_with_requests : forall p fl ts, wf_b p = true ->
  Forall (fun s => forall c q, n_parent (nd p c) = Some q -> n_kind (nd p q) = KWatch ->
                               C02_order.plain p c = true -> C02_order.plain p q = true ->
                               started (st s c) = true -> activated (st s q) = true)
         (rstates p fl [FVisit 0] (InterpRun.init p) 0 ts).
Proof. intros p fl ts. exact (req_watch_body_only_after_activation p fl ts). Qed.
Print Assumptions C04_watch_body_runs_only_after_activation_with_requests.
Theorem C04_a_cancelled_watch_never_runs_its_body : forall p fl ts q,
  wf_b p = true -> n_kind (nd p q) = KWatch -> C02_order.plain p q = true ->
  from_then (dead q)
            (fun s => forall c, n_parent (nd p c) = Some q -> C02_order.plain p c = true -> started (st s c) = false)
            (rstates p fl [FVisit 0] (InterpRun.init p) 0 ts).
Proof. exact cancelled_watch_body_never_starts. Qed.
Print Assumptions C04_a_cancelled_watch_never_runs_its_body.

(* PARTIAL. Decided by the Coq monitor on the real interpreter: a body line of an ALARM starts only while the Alarm is
   activated (for Watches: theorem above); a Watch outside Alarm and Macro bodies never loses its activation; nothing of a body starts after the enclosing block
   has ended. Cancel and force requests are those of model/C12.v (the last two theorems; C12). Observed and recorded in DESIGN.md: a Watch / Alarm nested
   inside an interrupt body is executed both inline by the enclosing generator and by its own interrupt -- the two
   generators share the node state, the body lines still run once per activation, but the alarm's run counter advances by
   two and it re-registers twice. *)
