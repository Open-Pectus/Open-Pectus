(* C36 Every changed tag is reported with its latest value. Statements only. *)
From Coq Require Import ZArith List Bool String.
From OP Require Import lib.Obs model.Tags proofs.Tags_proofs gen.Sites.
Import ListNotations.
Open Scope Z_scope.

(* Completeness: after ANY sequence of tag writes, engine notify steps and reports in which every write
   goes through a notifying method (no raw assignment) and simulated values are not None, every tag
   whose visible value differs from the value last reported is in the next report, with its current
   value (and stamp). *)
Theorem C36_complete : forall ts ops i,
  wf_tags ts -> forallb disciplined ops = true ->
  let s := exec ts ops in
  (i < n_tags s)%nat -> visible (get s i) <> nth i (rep s) 0 ->
  In (i, visible (get s i), t_stamp (get s i)) (r_entries (next_report s false)).
Proof. intros ts ops i W D. exact (report_complete _ i (exec_Inv ops (init ts) D (Inv_init ts W))). Qed.
Print Assumptions C36_complete.

(* Whatever a report lists is the tag's value at that moment. *)
Theorem C36_latest_value : forall s snap i v stp,
  In (i, v, stp) (r_entries (next_report s snap)) -> v = visible (get s i) /\ stp = t_stamp (get s i).
Proof. exact report_values_current. Qed.
Print Assumptions C36_latest_value.

(* No tag twice in a report -- in ANY state, disciplined or not. *)
Theorem C36_no_duplicates : forall s snap, NoDup (map (fun e => fst (fst e)) (r_entries (next_report s snap))).
Proof. exact report_nodup. Qed.
Print Assumptions C36_no_duplicates.

(* A snapshot lists every tag -- in ANY state. *)
Theorem C36_snapshot_all : forall s i, (i < n_tags s)%nat ->
  In (i, visible (get s i), t_stamp (get s i)) (r_entries (next_report s true)).
Proof. exact snapshot_all. Qed.
Print Assumptions C36_snapshot_all.

(* The hypothesis of C36_complete is what the source guarantees: the table of raw assignments to a
   tag's value fields outside Tag's notifying methods, regenerated from the source on every run, is empty. *)
Theorem C36_sites_ok : raw_sites = [].
Proof. reflexivity. Qed.
Print Assumptions C36_sites_ok.

(* With one raw assignment (Block Time / Scope Time as they were) the statement is false. *)
Theorem C36_raw_assignment_refutes :
  let s := exec raw_witness_tags raw_witness_ops in
  visible (get s 0) <> nth 0 (rep s) 0 /\ r_entries (next_report s false) = [].
Proof. exact raw_assignment_unreported. Qed.
Print Assumptions C36_raw_assignment_refutes.

Example C36_nonvacuous :
  let ts := [{| t_val := 1; t_sim := 0; t_simd := false; t_stamp := 0 |}; {| t_val := 5; t_sim := 0; t_simd := false; t_stamp := 0 |}] in
  let ops := [OTick 10; OSet 0 2 10; OSim 1 7 10; ONotify; OCollect false; OTick 11; OStopSim 1; OSet 0 3 11] in
  wf_tags ts /\ forallb disciplined ops = true /\
  r_entries (next_report (exec ts ops) false) = [(0%nat, 3, 11); (1%nat, 5, 10)].
Proof.
  split; [|split; vm_compute; reflexivity].
  intros t [<-|[<-|[]]]; reflexivity.
Qed.
