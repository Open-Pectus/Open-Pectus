(* C05 Blocks nest and end correctly; Block tag names the active block. Statements only. *)
From Coq Require Import ZArith List Bool Arith.
From OP Require Import lib.Obs model.Interp model.InterpRun model.C05 proofs.Interp_inv proofs.C05_proofs proofs.C05_pending proofs.Interp_stack proofs.C02_order proofs.C05_order.
Import ListNotations.
Open Scope Z_scope.

(* After EVERY tick of EVERY run -- for every method of the modelled constructs (Mark, Blank / Comment, Block, End block,
   End blocks, Watch, Alarm, Wait, Noop, command lines, simple and invalid instructions, thresholds, Macro definitions and
   calls), every environment (which thresholds are still awaited, which conditions hold or raise, when commands complete,
   tick times) and any number of ticks -- the blocks that hold the block lock form ONE nested chain: of any
   two, one is an ancestor of the other. A block can take the lock only when every locked block is one of its ancestors,
   and nothing else ever sets the lock. (Blocks of the method tree: in_method; the blocks of injected snippets are invisible
   to get_locked_blocks -- C14.) *)
Theorem C05_locked_blocks_form_a_chain : forall p ts,
  Forall (fun s => forall a b, is_block p a = true -> is_block p b = true -> in_method p a = true -> in_method p b = true ->
                   lock_acquired (st s a) = true -> lock_acquired (st s b) = true ->
                   a = b \/ In a (ancestors p b) \/ In b (ancestors p a))
         (states p [FVisit 0] (init p) 0 ts).
Proof. intros p ts. exact (Chain_always p ts _ _ _ (Chain_init p)). Qed.
Print Assumptions C05_locked_blocks_form_a_chain.

(* the states of that theorem are the ones the correspondence observes: the node states of the views of a run *)
Lemma states_are_views : forall p ts main s now,
  map nodes (states p main s now ts) = map v_nodes (run_ticks p main s now ts).
Proof.
  intros p ts. induction ts as [|t ts IH]; intros main s now; cbn [states run_ticks]; [reflexivity|].
  destruct (tick p (rounds_of p) (fuel_of p) _ main _) as [[[main' s2] r]|]; [|reflexivity].
  cbn [map v_nodes]. now rewrite IH.
Qed.
Theorem C05_views_are_those_states : forall p ts,
  map nodes (states p [FVisit 0] (init p) 0 ts) = map v_nodes (InterpRun.run (p, ts)).
Proof. intros p ts. apply states_are_views. Qed.
Print Assumptions C05_views_are_those_states.

(* 'End block' / 'End blocks' end the block(s) TOGETHER WITH THEIR PENDING WATCHES AND ALARMS: after EVERY tick of EVERY
   run, no Watch / Alarm of the interrupt map lies inside a block that has ended -- for every method whose parent
   pointers and child lists describe the same tree (tree_ok_b, evaluated by the check on every generated method), every
   environment and any number of ticks. Three things make it true: End block removes every interrupt among the
   descendants of the block it ends; nothing else sets block_ended; and (the /repo fix) _register_interrupt refuses a node
   inside an ended block, which closes the three ways a Watch / Alarm would get (back) into the map of an ended block:
   its generator is still in the tick's copy of the map, an Alarm re-arms itself after its own body ended the block,
   a line that passed the ended-block test one tick earlier registers itself. *)
Theorem C05_no_pending_watch_or_alarm_in_an_ended_block : forall p ts, tree_ok_b p = true ->
  Forall (fun v => no_pending_in_ended p v = true) (InterpRun.run (p, ts)).
Proof. intros p ts H. exact (no_pending_always p (tree_ok_tree p H) ts _ _ _ (I_init p)). Qed.
Print Assumptions C05_no_pending_watch_or_alarm_in_an_ended_block.

(* Lock clause. In EVERY state after every tick of EVERY run, for every well-formed method tree (wf_b, evaluated by the
   monitor on every generated method), outside Alarm and Macro bodies a started line whose parent is a Block lies in a block
   that has taken the lock: it holds it, or has ended / completed since. No line of a block body runs before the block
   acquired the block lock; with the chain theorem, the blocks whose bodies are running are nested in each other. Stack
   invariant (proofs/Interp_stack.v): the children loop of a Block is pushed only by a frame that saw the lock, and outside
   Alarm / Macro bodies "lock or ended or completed" never falls (the lock is given back only by a block that has ended). *)
Theorem C05_a_block_body_runs_only_with_the_lock : forall p ts, wf_b p = true ->
  Forall (fun s => forall c q, n_parent (nd p c) = Some q -> n_kind (nd p q) = KBlock ->
                               C02_order.plain p c = true -> C02_order.plain p q = true -> started (st s c) = true ->
                               lock_acquired (st s q) = true \/ block_ended (st s q) = true \/ completed (st s q) = true)
         (states p [FVisit 0] (InterpRun.init p) 0 ts).
Proof. exact block_body_runs_only_with_the_lock. Qed.
Print Assumptions C05_a_block_body_runs_only_with_the_lock.

(* PARTIAL. Proved: the chain clause, the pending-interrupt clause and the lock clause. Checked by the Coq monitor on the real interpreter
   (and, through the correspondence, on the model): the Block tag names the innermost active block and nothing when none
   is active; an instruction after a block starts only after the block has ended.
   Macros are part of the model, which shows: a Block inside a macro called from inside another block can never take the
   lock (can_lock wants every locked block among its static ancestors, and the caller's block is not one) and the run
   stalls. The lock clause excludes the lines of Macro bodies. *)
Example C05_nonvacuous :
  let p := [ {| n_kind := KProgram; n_parent := None; n_children := [1; 4]%nat; n_thr := false |};
             {| n_kind := KBlock; n_parent := Some 0%nat; n_children := [2; 3]%nat; n_thr := false |};
             {| n_kind := KMark; n_parent := Some 1%nat; n_children := []; n_thr := false |};
             {| n_kind := KEndBlock; n_parent := Some 1%nat; n_children := []; n_thr := false |};
             {| n_kind := KMark; n_parent := Some 0%nat; n_children := []; n_thr := false |} ] in
  let t := {| t_complete := []; t_dt := 1; t_thr_wait := []; t_cond_true := []; t_cond_err := [] |} in
  map v_block (InterpRun.run (p, repeat t 12)) =
  [None; None; Some 1%nat; Some 1%nat; Some 1%nat; None; None; None; None; None; None; None].
Proof. vm_compute. reflexivity. Qed.
Example C05_tree_ok_nonvacuous :
  tree_ok_b [ {| n_kind := KProgram; n_parent := None; n_children := [1; 4]%nat; n_thr := false |};
              {| n_kind := KBlock; n_parent := Some 0%nat; n_children := [2; 3]%nat; n_thr := false |};
              {| n_kind := KWatch; n_parent := Some 1%nat; n_children := []; n_thr := false |};
              {| n_kind := KEndBlock; n_parent := Some 1%nat; n_children := []; n_thr := false |};
              {| n_kind := KMark; n_parent := Some 0%nat; n_children := []; n_thr := false |} ] = true.
Proof. vm_compute. reflexivity. Qed.

(* REFUTED (known finding): the after-block clause fails inside a re-arming Alarm body. The model's own run of
     Alarm: X > 2 / Block: B1 [Wait: 0 s; Wait: 2 s; End blocks] / Watch: X > 2
   reaches a state in which the Watch after the block has started while the block, started again by the Alarm's second
   invocation, has not ended: the Watch's interrupt of the first invocation survived the re-arm. *)
Example C05_after_block_refuted :
  let p := [{| n_kind := KProgram; n_parent := None; n_children := [1%nat]; n_thr := false |}; {| n_kind := KAlarm; n_parent := (Some 0%nat); n_children := [2%nat; 6%nat]; n_thr := false |}; {| n_kind := KBlock; n_parent := (Some 1%nat); n_children := [3%nat; 4%nat; 5%nat]; n_thr := false |}; {| n_kind := (KWait 0); n_parent := (Some 2%nat); n_children := []; n_thr := false |}; {| n_kind := (KWait 20); n_parent := (Some 2%nat); n_children := []; n_thr := false |}; {| n_kind := KEndBlocks; n_parent := (Some 2%nat); n_children := []; n_thr := false |}; {| n_kind := KWatch; n_parent := (Some 1%nat); n_children := [7%nat; 8%nat; 9%nat]; n_thr := false |}; {| n_kind := (KBlank true); n_parent := (Some 6%nat); n_children := []; n_thr := false |}; {| n_kind := (KBlank true); n_parent := (Some 6%nat); n_children := []; n_thr := false |}; {| n_kind := (KBlank true); n_parent := (Some 6%nat); n_children := []; n_thr := false |}] in
  let ts := [{| t_complete := []; t_dt := 1; t_thr_wait := []; t_cond_true := [1%nat]; t_cond_err := [] |}; {| t_complete := []; t_dt := 1; t_thr_wait := []; t_cond_true := [1%nat]; t_cond_err := [] |}; {| t_complete := []; t_dt := 1; t_thr_wait := []; t_cond_true := [1%nat]; t_cond_err := [] |}; {| t_complete := []; t_dt := 2; t_thr_wait := []; t_cond_true := [1%nat]; t_cond_err := [] |}; {| t_complete := []; t_dt := 1; t_thr_wait := []; t_cond_true := [1%nat]; t_cond_err := [] |}; {| t_complete := []; t_dt := 2; t_thr_wait := []; t_cond_true := []; t_cond_err := [] |}; {| t_complete := []; t_dt := 1; t_thr_wait := []; t_cond_true := [1%nat]; t_cond_err := [] |}; {| t_complete := []; t_dt := 1; t_thr_wait := []; t_cond_true := [1%nat]; t_cond_err := [] |}; {| t_complete := []; t_dt := 1; t_thr_wait := []; t_cond_true := [6%nat]; t_cond_err := [] |}; {| t_complete := []; t_dt := 1; t_thr_wait := []; t_cond_true := [1%nat]; t_cond_err := [] |}; {| t_complete := []; t_dt := 2; t_thr_wait := []; t_cond_true := [1%nat]; t_cond_err := [] |}; {| t_complete := []; t_dt := 1; t_thr_wait := []; t_cond_true := [6%nat]; t_cond_err := [] |}; {| t_complete := []; t_dt := 1; t_thr_wait := []; t_cond_true := [6%nat]; t_cond_err := [] |}; {| t_complete := []; t_dt := 1; t_thr_wait := []; t_cond_true := [1%nat]; t_cond_err := [] |}; {| t_complete := []; t_dt := 1; t_thr_wait := []; t_cond_true := [1%nat; 6%nat]; t_cond_err := [] |}; {| t_complete := []; t_dt := 1; t_thr_wait := []; t_cond_true := [1%nat]; t_cond_err := [] |}; {| t_complete := []; t_dt := 1; t_thr_wait := []; t_cond_true := []; t_cond_err := [] |}; {| t_complete := []; t_dt := 1; t_thr_wait := []; t_cond_true := []; t_cond_err := [] |}; {| t_complete := []; t_dt := 1; t_thr_wait := []; t_cond_true := [1%nat; 6%nat]; t_cond_err := [] |}; {| t_complete := []; t_dt := 1; t_thr_wait := []; t_cond_true := []; t_cond_err := [] |}] in
  existsb (fun v => negb (after_block_ok p v)) (InterpRun.run (p, ts)) = true.
Proof. vm_compute. reflexivity. Qed.
