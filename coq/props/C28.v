(* C28 A run survives engine reconnects and aggregator restarts. Statements only. *)
From Coq Require Import ZArith List Bool Arith.
From OP Require Import lib.Obs model.C29 model.Agg proofs.Agg_proofs.
Import ListNotations.
Open Scope Z_scope.

(* An engine that disconnects during run (r, t) and re-registers -- after ANY operations that do
   not involve it, aggregator restarts and even crashes included -- continues run r with start t. *)
Theorem C28_same_run_after_reconnect : forall interval entries s e r t os,
  run_of s e = Some (Some (r, t)) ->
  forallb (fun o => negb (touches e o)) os = true ->
  run_of (step interval entries (final interval entries (step interval entries s (Disconnect e)) os) (Register e)) e
  = Some (Some (r, t)).
Proof. intros interval entries s e r t os. apply same_run_after_reconnect. Qed.
Print Assumptions C28_same_run_after_reconnect.

(* A graceful aggregator restart (shutdown, new process over the same database) during a run. *)
Theorem C28_same_run_after_restart : forall interval entries s e r t os,
  NoDup (ids (engines s)) -> run_of s e = Some (Some (r, t)) ->
  forallb (fun o => negb (touches e o)) os = true ->
  run_of (step interval entries (final interval entries (step interval entries s Restart) os) (Register e)) e
  = Some (Some (r, t)).
Proof. intros interval entries s e r t os. apply same_run_after_restart. Qed.
Print Assumptions C28_same_run_after_restart.

(* Tag data accepted for the run is recorded in that run's plot log and nowhere else. *)
Theorem C28_tags_recorded_in_run : forall interval entries s e x c msg,
  find_engine s e = Some x -> e_run x = Some c ->
  exists new, plot_rows (data (step interval entries s (Tags e (Some (rd_id c)) msg))) = plot_rows (data s) ++ new
              /\ Forall (fun w => fst w = (e, rd_id c)) new.
Proof. intros interval entries s e x c msg. apply tags_in_run. Qed.
Print Assumptions C28_tags_recorded_in_run.

(* Stored once: see C30 (same model). The unregistered engine's recorded run is stable. *)
Theorem C28_recorded_run_stable : forall interval entries os s e v,
  forallb (fun o => negb (touches e o)) os = true ->
  find_engine s e = None -> get_recent (recent_engines (data s)) e = Some v ->
  find_engine (final interval entries s os) e = None /\
  get_recent (recent_engines (data (final interval entries s os))) e = Some v.
Proof. intros interval entries os s e v Hall Hf Hg. exact (parked_final interval entries os s e v Hall (conj Hf Hg)). Qed.
Print Assumptions C28_recorded_run_stable.

(* Full-strength statement including a crash (no shutdown) of the aggregator during a run. *)
Definition C28_crash_statement : Prop :=
  forall interval entries s e r t,
  run_of s e = Some (Some (r, t)) ->
  run_of (step interval entries (step interval entries s Crash) (Register e)) e = Some (Some (r, t)).

(* FALSE of the faithful model: nothing was written to the database for the engine, so the run is
   not continued (known finding, replayed on the real aggregator). *)
Theorem C28_crash_refuted : ~ C28_crash_statement.
Proof.
  intros H.
  specialize (H None [] (final None [] init [Register 0%nat; RunStarted 0%nat 1 5]) 0%nat 1 5 eq_refl).
  vm_compute in H. discriminate.
Qed.
Print Assumptions C28_crash_refuted.

Example C28_nonvacuous :
  let s := final (Some 1) [0%nat] init [Register 0%nat; Register 1%nat; RunStarted 0%nat 7 3] in
  run_of s 0%nat = Some (Some (7, 3)) /\ NoDup (ids (engines s)) /\
  run_of (final (Some 1) [0%nat] s [Disconnect 0%nat; RunStarted 1%nat 8 4; Restart; Register 1%nat; Register 0%nat]) 0%nat
  = Some (Some (7, 3)).
Proof. vm_compute. repeat split; try reflexivity. repeat constructor; cbn; intuition discriminate. Qed.
