(* C01 Live method edits never re-run or lose run progress. Statements only.
   REFUTED: the theorems below are about a model of live edits AS IMPLEMENTED, validated tick by tick against the real
   MethodManager and interpreter. They state precisely how the property fails, and what still holds. *)
From Coq Require Import ZArith List Bool Arith.
From OP Require Import lib.Obs model.Interp model.InterpRun model.C01 proofs.Interp_inv proofs.C05_proofs proofs.C01_proofs.
Import ListNotations.
Open Scope Z_scope.

(* What holds. A rejected edit leaves the run exactly as it was. *)
Theorem C01_rejected_edit_changes_nothing : forall m e m', apply_edit m e = (m', false) -> m' = m.
Proof. exact rejected_changes_nothing. Qed.
Print Assumptions C01_rejected_edit_changes_nothing.
(* While the manager still holds the interpreter's program (the first edit of a run, or the edit after a reload), an edit is
   rejected exactly when it changes a line that has started or completed. *)
Theorem C01_attached_edit_rejected_iff_it_touches_a_started_line : forall m e, m_detached m = false ->
  (snd (apply_edit m e) = false <-> existsb (protected (m_s m)) (e_changed e) = true).
Proof. intros m e D. rewrite rejected_iff. tauto. Qed.
Print Assumptions C01_attached_edit_rejected_iff_it_touches_a_started_line.

(* What fails, for EVERY method, state and edit. (1) After an accepted edit no line is started or completed any more:
   all run progress is dropped and the method runs again from its first line. *)
Theorem C01_refuted_accepted_edit_drops_all_progress : forall m e m',
  apply_edit m e = (m', true) -> forall n, started (st (m_s m') n) = false /\ completed (st (m_s m') n) = false.
Proof. intros m e m' H. exact (accepted_edit_drops_all_progress m e m' H). Qed.
Print Assumptions C01_refuted_accepted_edit_drops_all_progress.
(* (2) An accepted merge detaches the manager's program, and a detached manager accepts any edit, also of started lines. *)
Theorem C01_refuted_second_edit_is_not_validated : forall m e m' e',
  m_detached m = false -> apply_edit m e = (m', true) -> snd (apply_edit m' e') = true.
Proof.
  intros m e m' e' D H. apply not_false_iff_true. rewrite rejected_iff, (accepted_merge_detaches m e m' D H). now intros [].
Qed.
Print Assumptions C01_refuted_second_edit_is_not_validated.

(* A Coq-evaluated run: Mark: A / Wait: 2 s / Mark: B, a line appended after five ticks. Mark A had completed (view 2-4);
   after the edit it is not completed (view 5, 6) and completes a second time (view 7); the reported method state is empty
   from the edit on; the monitor of the property is false on the run. The same run on the real code shows 'A; A; B'. *)
Definition mk (k : kind) (par : option nat) (ch : list nat) := {| n_kind := k; n_parent := par; n_children := ch; n_thr := false |}.
Example C01_refuted_witness :
  let p0 := [mk KProgram None [1;2;3]%nat; mk KMark (Some 0%nat) []; mk (KWait 20) (Some 0%nat) []; mk KMark (Some 0%nat) []] in
  let p1 := [mk KProgram None [1;2;3;4]%nat; mk KMark (Some 0%nat) []; mk (KWait 20) (Some 0%nat) []; mk KMark (Some 0%nat) []; mk KMark (Some 0%nat) []] in
  let t := {| t_complete := []; t_dt := 1; t_thr_wait := []; t_cond_true := []; t_cond_err := [] |} in
  let ed := {| e_prog := p1; e_old := [Some 0; Some 1; Some 2; Some 3; None]%nat; e_changed := [] |} in
  let segs := repeat {| g_edit := None; g_tick := t |} 5 ++ [{| g_edit := Some ed; g_tick := t |}] ++ repeat {| g_edit := None; g_tick := t |} 6 in
  map (fun v => completed (C01.vst v 1)) (run (p0, segs)) = [false; false; true; true; true; false; false; true; true; true; true; true]
  /\ map ev_state (firstn 2 (skipn 4 (run (p0, segs)))) = [([0; 2]%nat, [1%nat]); ([], [])]
  /\ holds_b (p0, segs) (run (p0, segs)) = false.
Proof. vm_compute. repeat split; reflexivity. Qed.
