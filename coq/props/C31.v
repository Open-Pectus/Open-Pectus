(* C31 Method saves use optimistic concurrency without lost updates. Statements only.
   (model/C31.v models the repaired save_method with its per-engine lock; see KNOWN_FINDINGS.json) *)
From Coq Require Import ZArith List Bool Arith.
From OP Require Import lib.Obs model.C31 proofs.C31_proofs.
Import ListNotations.
Open Scope Z_scope.

(* For ALL schedules of any number of concurrent saves and engine replies: *)

(* of any set of saves based on the same version at most one is accepted (accepted bases are
   pairwise distinct, in fact strictly increasing) *)
Theorem C31_at_most_one_per_base : forall v os,
  NoDup (map snd (accepted (final (init v) os))).
Proof.
  intros v os. eapply increasing_nodup. exact (inv_acc _ (reachable_inv os (init v) (init_inv v))).
Qed.
Print Assumptions C31_at_most_one_per_base.

(* a save is accepted only if it was based on the current version, and each accepted save
   increases the version by exactly one; nothing else changes the version *)
Theorem C31_based_on_current_and_plus_one : forall s o, Inv s ->
  (version (step s o) = version s /\ accepted (step s o) = accepted s)
  \/ (exists i, o = Reply i true /\ holder s = Some (i, version s)
                /\ version (step s o) = version s + 1 /\ accepted (step s o) = accepted s ++ [(i, version s)]).
Proof.
  intros s o HI. destruct (step_version s o) as [H|[i [b [Ho [Hh H]]]]]; [now left|right].
  destruct (inv_holder s HI i b Hh). exists i. auto.
Qed.
Print Assumptions C31_based_on_current_and_plus_one.

Theorem C31_invariant : forall v os, Inv (final (init v) os).
Proof. intros v os. exact (reachable_inv os (init v) (init_inv v)). Qed.
Print Assumptions C31_invariant.

(* Non-vacuity and regression witness: two saves on the same base interleaved at the await (both
   were accepted with the same new version before the fix); the second is rejected. *)
Example C31_nonvacuous :
  run (5, 3%nat, [Start 0%nat 5; Start 1%nat 5; Start 2%nat 6; Reply 0%nat true; Reply 2%nat true])
  = [(5, [2; 0; 0], [(0%nat, 6)]); (5, [2; 1; 0], [(0%nat, 6)]); (5, [2; 1; 1], [(0%nat, 6)]);
     (6, [16; 3; 2], [(0%nat, 6); (2%nat, 7)]); (7, [16; 3; 17], [(0%nat, 6); (2%nat, 7)])].
Proof. vm_compute. reflexivity. Qed.
