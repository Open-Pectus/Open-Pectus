(* C15 Run log is always producible and well-formed. Statements only. *)
From Coq Require Import ZArith List Bool Arith.
From OP Require Import lib.Obs model.C15 proofs.C15_proofs.
Import ListNotations.
Open Scope Z_scope.

(* For EVERY list of runtime records -- any node classes, any names, any number of invocations per record, ANY sequence
   of tracking states per invocation (Cancelled then Failed, Completed then Cancelled, states after a conclusive state,
   missing Started ...), with any flags -- whose invocations are time-ordered, get_runlog produces a run log; it refuses
   only records with an invocation whose states go back in time; and every run log it produces is sorted by start time
   and consists of well-formed items: no item ends before it starts, and every completed, failed or cancelled item has an
   end time and is neither cancellable nor forcible. *)
Theorem C15_runlog_total_and_wellformed : forall rs,
  (all_ordered rs = true ->
     exists l, get_runlog rs = Some l /\ Forall (fun it => item_ok it = true) l /\ sorted_by_start l = true) /\
  (all_ordered rs = false -> get_runlog rs = None).
Proof. exact runlog_total_and_wellformed. Qed.
Print Assumptions C15_runlog_total_and_wellformed.

(* one invocation contributes at most one item, carrying the invocation's instance id; earlier items are left alone *)
Theorem C15_one_item_per_invocation : forall base s l,
  ordered (s :: l) = true ->
  exists a', invocation {| a_items := base; a_item := None; a_concluded := false; a_cmd := None |} (s :: l) true = Some a' /\
    (a_items a' = base \/ exists it, a_items a' = base ++ [it] /\ item_ok it = true /\ i_id it = s_inst s).
Proof. exact invocation_ok. Qed.
Print Assumptions C15_one_item_per_invocation.

(* the /repo fix is needed: before it a state after a conclusive state of the same invocation (a failing UOD command
   records Cancelled then Failed) made get_runlog raise for the rest of the run. With the fix: *)
Example C15_cancelled_then_failed :
  get_runlog [{| r_class := COther; r_name := NName;
                 r_states := [{| s_name := SStarted; s_inst := 0; s_time := 1; s_tick := 1; s_cancellable := true; s_cancelled := false; s_forcible := false; s_forced := false |};
                              {| s_name := SCancelled; s_inst := 0; s_time := 2; s_tick := 2; s_cancellable := true; s_cancelled := true; s_forcible := false; s_forced := false |};
                              {| s_name := SFailed; s_inst := 0; s_time := 2; s_tick := 2; s_cancellable := true; s_cancelled := true; s_forcible := false; s_forced := false |}] |}]
  = Some [{| i_id := 0; i_state := IFailed; i_start := 1; i_end := Some 2; i_cancellable := false; i_cancelled := true;
             i_forcible := false; i_forced := false; i_failed := true |}].
Proof. vm_compute. reflexivity. Qed.

(* PARTIAL: "distinct ids" across records rests on instance ids being unique (uuid4), and "every completed instruction
   appears as a completed item" / "for any execution" depend on which states tracking records during a run: both are
   checked by the Coq monitor on the run logs the real engine produces after every operation of generated executions. *)
