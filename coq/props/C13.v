(* C13 Engine ticks never crash; method errors pause the run. Engine-core part. Statements only. *)
From Coq Require Import ZArith List Bool Arith.
From OP Require Import lib.Obs model.Eng model.EngRun model.C13 proofs.Eng_prims proofs.C13_proofs.
Import ListNotations.
Open Scope Z_scope.

(* PARTIAL: the property quantifies over method texts; the engine-core model takes the interpreter as an input (the
   requests it issues per tick and whether its tick raised). What is proved is the engine's side of the contract: every
   failure that reaches the engine -- an exception out of interpreter.tick, out of the command manager (failing UOD
   command, tracking error), a hardware read or write error -- is routed to set_error_state inside the tick (the model's
   tick is total; the tie to the code's try/except structure is the correspondence, in which the driver records any
   exception that escapes Engine.tick as ECrash, an event the model never emits), and set_error_state pauses the run with
   Method Status Error. *)

Theorem C13_error_state : forall e,
  let e' := set_error_state e in
  paused e' = true /\ m_err e' = true /\ last_err e' = true /\ sys e' = Paused /\ started e' = started e
  /\ trace e' = trace e ++ [EError].
Proof. exact error_state_law. Qed.
Print Assumptions C13_error_state.

(* an interpreter error in a tick in which the interpreter runs: the tick's events contain the error-state transition,
   whatever else happens in that tick (commands, faults) *)
Theorem C13_interpreter_error_reaches_error_state : forall safe overlaps e i,
  interp_runs (if t_read_ok i then set_now e (t_time i) (t_write_ok i)
               else if last_err (set_now e (t_time i) (t_write_ok i)) then set_now e (t_time i) (t_write_ok i)
                    else set_error_state (set_now e (t_time i) (t_write_ok i))) = true ->
  t_interp_raises i = true ->
  exists l1 l2, trace (tick safe overlaps e i) = trace e ++ l1 ++ [EError] ++ l2.
Proof. exact interp_error_routed. Qed.
Print Assumptions C13_interpreter_error_reaches_error_state.

(* the event trace of the engine only grows: nothing recorded is ever lost, in any execution *)
Theorem C13_trace_only_grows : forall safe overlaps ops e,
  exists l, trace (fold_left (fun e o => fst (step safe overlaps e o)) ops e) = trace e ++ l.
Proof. exact trace_only_grows. Qed.
Print Assumptions C13_trace_only_grows.

(* responsive to Stop: Stop is accepted in the error state (that its second step ends the run, also when the hardware
   write of that very step fails, is C10_run_end_clears_run_id) *)
Theorem C13_stop_accepted_when_paused : forall e, sys e = Paused -> validate e Stop = true.
Proof. exact stop_valid_when_paused. Qed.
Print Assumptions C13_stop_accepted_when_paused.

Example C13_monitor_rejects :
  holds_b (IEng ({| c_safe := []; c_overlaps := []; c_outs0 := [] |}, [ONop]))
          (OEng [{| v_flags := [true; false; false; false; false; false; true]; v_sys := Running; v_run := Some 0%nat; v_prev := None;
              v_outs := []; v_hw := []; v_clocks := [0; 0; 0; 0]; v_reg := []; v_uods := []; v_exe := []; v_que := [];
              v_events := [ECrash] |}]) = false
  /\ holds_b (IEng ({| c_safe := []; c_overlaps := []; c_outs0 := [] |}, [ONop]))
          (OEng [{| v_flags := [true; false; false; false; false; false; true]; v_sys := Running; v_run := Some 0%nat; v_prev := None;
              v_outs := []; v_hw := []; v_clocks := [0; 0; 0; 0]; v_reg := []; v_uods := []; v_exe := []; v_que := [];
              v_events := [EError] |}]) = false.
Proof. split; vm_compute; reflexivity. Qed.
