(* C08 Outputs with a safe value are safe whenever no run is progressing. Statements only. *)
From Coq Require Import ZArith List Bool Arith.
From OP Require Import lib.Obs model.Eng model.EngRun model.C08 proofs.Eng_prims proofs.C08_proofs.
Import ListNotations.
Open Scope Z_scope.

(* The full property is the STRICT discipline (mon8 true): at the hardware write boundary
     - every image written while no run is active carries the safe value on every output that has one,
     - during a pause (begun by Pause OR by an error) every image carries the safe value on every such output except
       those the USER assigned since the pause began,
   and the hardware memory holds safe values from engine start to the first run and after every Stop.
   It is REFUTED for the faithful model (two witnesses below: a method-started UOD command that keeps assigning an
   output while the run is paused; an error pause, which applies no safe state) -- known findings. *)

(* What holds, for EVERY state reachable by ANY operation sequence (faults included): the event trace obeys the
   discipline in which ANY assignment exempts an output during a pause and error pauses are not covered, and
     - whenever the last image was written while no run was active (engine start, or a Stop whose write reached the
       hardware) the hardware memory holds the safe value on every output that has one;
     - during a Pause-begun pause every output with a safe value that nothing assigned since the pause began holds it
       in its tag, and on the hardware as soon as an image has been written;
     - the engine writes to the hardware only while started, or at engine start / Stop with safe values. *)
Theorem C08_safe_outputs_partial : forall safe overlaps n outs0 ops,
  let e := fold_left (fun e o => fst (step safe overlaps e o)) ops (boot safe (init n outs0)) in
  exists s, mon8 false safe st_boot (trace e) = Some s
    /\ (started e = true -> active s = true)
    /\ (idle_ok s = true -> safe_hw 0 [] safe (hw e) = true)
    /\ (forall ex w, pausing s = Some (ex, w) -> safe_vals 0 ex safe (outs e) = true)
    /\ (forall ex, pausing s = Some (ex, true) -> safe_hw 0 ex safe (hw e) = true).
Proof.
  intros safe overlaps n outs0 ops e. destruct (R8_reachable safe overlaps n outs0 ops) as [s [M [A B C D F]]].
  exists s. repeat split; assumption.
Qed.
Print Assumptions C08_safe_outputs_partial.

(* engine start: the hardware holds the safe values before any operation *)
Theorem C08_safe_from_engine_start : forall safe n outs0,
  safe_hw 0 [] safe (hw (boot safe (init n outs0))) = true.
Proof.
  intros safe n outs0. apply boot_hw_safe.
Qed.
Print Assumptions C08_safe_from_engine_start.

(* the safe state really is safe: after _apply_safe_state every output with a safe value holds it *)
Theorem C08_apply_safe_state_is_safe : forall safe outs,
  safe_vals 0 [] safe (snd (safe_from 0 safe outs)) = true.
Proof. intros safe outs. apply safe_after_apply. Qed.
Print Assumptions C08_apply_safe_state_is_safe.

Definition rq (id : nat) (n : cname) (scr : uscript) (user : bool) : request :=
  {| r_id := id; r_name := n; r_dur := None; r_scr := scr; r_user := user; r_cancellable := negb user; r_tracked := true |}.
Definition nos := {| u_dur := 0%nat; u_fail := None; u_out := None |}.
Definition tk (rs : list request) (rok wok : bool) :=
  OTick {| t_time := 1; t_dt := 1; t_read_ok := rok; t_write_ok := wok; t_interp := rs; t_interp_raises := false |}.
Definition trace_of (ops : list op) :=
  trace (fold_left (fun e o => fst (step [Some 0] [] e o)) ops (boot [Some 0] (init 1 [3]))).

(* known finding 1: a UOD command started by the method keeps assigning Out (safe value 0) while the run is paused *)
Definition w_method_uod : list op :=
  [OUser (rq 0 (CI Start) nos true) Start; tk [] true true; tk [] true true;
   tk [rq 1 (CU 0) {| u_dur := 5%nat; u_fail := None; u_out := Some (0%nat, 7) |} false] true true;
   tk [] true true; OUser (rq 2 (CI Pause) nos true) Pause; tk [] true true; tk [] true true].
(* known finding 2: a hardware read error pauses the run; the outputs keep their running values *)
Definition w_error_pause : list op :=
  [OUser (rq 0 (CI Start) nos true) Start; tk [] true true; tk [] true true; OSetOut 0 9; tk [] false true; tk [] true true].

Theorem C08_strict_refuted :
  mon8 true [Some 0] st_boot (trace_of w_method_uod) = None /\ mon8 true [Some 0] st_boot (trace_of w_error_pause) = None.
Proof. vm_compute. split; reflexivity. Qed.
Print Assumptions C08_strict_refuted.

(* non-vacuity: the partial discipline accepts both, with a pause in progress / a run active *)
Example C08_nonvacuous :
  (exists ex, option_map pausing (mon8 false [Some 0] st_boot (trace_of w_method_uod)) = Some (Some (ex, true)))
  /\ option_map active (mon8 false [Some 0] st_boot (trace_of w_error_pause)) = Some true.
Proof. split; [eexists|]; vm_compute; reflexivity. Qed.
