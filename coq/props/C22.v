(* C22 Command argument patterns accept exactly their documented language. Statements only. *)
From Coq Require Import ZArith List Bool.
From OP Require Import lib.Obs model.C22 proofs.C22_proofs.
Import ListNotations.
Open Scope Z_scope.

(* Numeric patterns deliver the number and unit unchanged: whatever is captured is a substring of
   the argument, surrounded and separated by whitespace only; a captured unit is one of the
   declared units; with declared units the unit is mandatory. For ALL unit lists and strings. *)
Theorem C22_number_capture : forall units nonneg intonly s num unit,
  match_number units nonneg intonly s = Some (num, unit) ->
  exists pre mid post,
    all_space pre = true /\ all_space mid = true /\ all_space post = true /\
    s = pre ++ num ++ mid ++ (match unit with Some u => u | None => [] end) ++ post /\
    match unit with Some u => In u units | None => units = [] end.
Proof. exact number_capture. Qed.
Print Assumptions C22_number_capture.

(* Full-strength statement for categorical patterns. *)
Definition C22_categorical_statement : Prop :=
  forall excl add s, match_categorical excl add s = doc_categorical excl add s.
Definition C22_never_empty_statement : Prop :=
  forall excl add, match_categorical excl add [] = false.

(* Both are FALSE of the faithful model of the pattern ^(?P<option>(E|(A|\+)+)(?<!\+))\s*$ : *)
Theorem C22_never_empty_refuted : ~ C22_never_empty_statement.
Proof. intros H. specialize (H [] []). now rewrite match_empty in H. Qed.
Print Assumptions C22_never_empty_refuted.

(* ... in fact the empty value is accepted for EVERY list of exclusive options without additive
   ones, and for every list of additive options without exclusive ones *)
Theorem C22_empty_accepted : forall l, match_categorical l [] [] = true /\ match_categorical [] l [] = true.
Proof. intros l. rewrite !match_empty. split; [apply orb_true_r|reflexivity]. Qed.
Print Assumptions C22_empty_accepted.

Theorem C22_categorical_refuted : ~ C22_categorical_statement.
Proof.
  intros H. specialize (H [] [A01; A02] (A01 ++ A02)).
  destruct overaccepts_unseparated as [H1 H2]. congruence.
Qed.
Print Assumptions C22_categorical_refuted.

(* Partial: no documented value is ever rejected (options non-empty, not ending in '+'). *)
Theorem C22_categorical_partial : forall excl add s,
  forallb opt_ok add = true -> forallb opt_ok excl = true ->
  doc_categorical excl add s = true -> match_categorical excl add s = true.
Proof. exact doc_implies_impl. Qed.
Print Assumptions C22_categorical_partial.

(* Introspection: the unit list the UI derives from a pattern. Refuted for a unit containing '|'. *)
Definition C22_introspection_statement : Prop :=
  forall units, units <> [] -> get_units (regex_number_str units false false) = Some units.
Theorem C22_introspection_refuted : ~ C22_introspection_statement.
Proof.
  intros H. assert (E := H [[97; 124; 98]] ltac:(discriminate)). rewrite get_units_refuted in E. discriminate.
Qed.
Print Assumptions C22_introspection_refuted.

Example C22_nonvacuous :
  match_number [[107; 103]; [76; 47; 104]] false false [32; 45; 49; 46; 53; 32; 76; 47; 104; 10]
    = Some ([45; 49; 46; 53], Some [76; 47; 104])
  /\ doc_categorical [[67]] [A01; A02] (A01 ++ plus :: A02 ++ [32]) = true
  /\ match_categorical [[67]] [A01; A02] (A01 ++ plus :: A02 ++ [32]) = true
  /\ get_units (regex_number_str [[107; 103]; [76; 47; 104]; [37]] false false) = Some [[107; 103]; [76; 47; 104]; [37]].
Proof. vm_compute. repeat split; reflexivity. Qed.
