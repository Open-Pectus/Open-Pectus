(* C06 Run state and System State always agree; control commands gated. Statements only. *)
From Coq Require Import ZArith List Bool Arith.
From OP Require Import lib.Obs model.Eng model.EngRun model.C06 proofs.Eng_state proofs.Eng_loop.
Import ListNotations.
Open Scope Z_scope.

(* The System State tag as a function of the run-state flags, and the run id, in EVERY state reachable from
   engine start by ANY sequence of fault-free operations: user control commands (any of them, any number of times
   between two ticks, valid or not), user UOD commands, output changes, and ticks with arbitrary time increments in
   which the interpreter issues arbitrary commands (Pause, Hold, Stop, Restart, UOD commands ...).
     Stopped  <-> no run is active;  Paused -> active and paused;  Holding -> active, on hold, not paused;
     Running  -> active, neither;    Restarting -> active and a Restart command is executing;
     run id = None <-> no run is active.
   Partial: op_ok admits fault-free operations only (no hardware or interpreter error, no failing UOD command), Pause and
   Hold without duration (r_dur = None) and no user Info command; what it leaves out is covered by the correspondence
   and the monitor only. *)
Theorem C06_state_function_partial : forall safe overlaps n outs0 ops,
  Forall op_ok ops ->
  state_function (fold_left (fun e o => fst (step safe overlaps e o)) ops (boot safe (init n outs0))).
Proof.
  intros safe overlaps n outs0 ops H. apply Inv_state_function. apply (g_inv _ (reachable_G safe overlaps n outs0 ops H)).
Qed.
Print Assumptions C06_state_function_partial.

(* Gating: a user control command is scheduled iff it is valid in the state at the time of the request, where
   validity is the property's reading of the state (System State, paused, holding) -- by definition of the model's
   step, which the correspondence ties to Engine._validate_control_command. *)
Theorem C06_gate : forall safe overlaps e r n,
  snd (step safe overlaps e (OUser r n)) = valid_in (view_of e true 0) n /\
  (valid_in (view_of e true 0) n = false -> fst (step safe overlaps e (OUser r n)) = e).
Proof.
  intros safe overlaps e r n. cbn [step]. assert (V : validate e n = valid_in (view_of e true 0) n) by (destruct n; reflexivity).
  rewrite <- V. destruct (validate e n); split; auto; discriminate.
Qed.
Print Assumptions C06_gate.

(* Run ids: in every reachable state the current run id is below the counter that hands out the next one, i.e. a new
   run always gets an id that was never used before. *)
Theorem C06_run_id_fresh : forall safe overlaps n outs0 ops,
  Forall op_ok ops ->
  let e := fold_left (fun e o => fst (step safe overlaps e o)) ops (boot safe (init n outs0)) in
  forall r, run_id e = Some r -> (r < next_run e)%nat.
Proof.
  intros safe overlaps n outs0 ops H e. apply (inv_run e (g_inv _ (reachable_G safe overlaps n outs0 ops H))).
Qed.
Print Assumptions C06_run_id_fresh.

(* op_ok is satisfiable: a run with two Stop requests and a Hold made between two ticks ends Stopped and not on hold *)
Example C06_nonvacuous :
  let ops := [OUser {| r_id := 0; r_name := CI Start; r_dur := None; r_scr := {| u_dur := 0; u_fail := None; u_out := None |};
                       r_user := true; r_cancellable := false; r_tracked := false |} Start;
              OTick {| t_time := 1; t_dt := 1; t_read_ok := true; t_write_ok := true; t_interp := []; t_interp_raises := false |};
              OUser {| r_id := 1; r_name := CI Stop; r_dur := None; r_scr := {| u_dur := 0; u_fail := None; u_out := None |};
                       r_user := true; r_cancellable := false; r_tracked := true |} Stop;
              OUser {| r_id := 2; r_name := CI Stop; r_dur := None; r_scr := {| u_dur := 0; u_fail := None; u_out := None |};
                       r_user := true; r_cancellable := false; r_tracked := true |} Stop;
              OUser {| r_id := 3; r_name := CI Hold; r_dur := None; r_scr := {| u_dur := 0; u_fail := None; u_out := None |};
                       r_user := true; r_cancellable := false; r_tracked := true |} Hold;
              OTick {| t_time := 2; t_dt := 1; t_read_ok := true; t_write_ok := true; t_interp := []; t_interp_raises := false |}] in
  Forall op_ok ops /\
  let e := fold_left (fun e o => fst (step [Some 0] [] e o)) ops (boot [Some 0] (init 1 [3])) in
  sys e = Stopped /\ started e = false /\ holding e = false /\ run_id e = None /\ next_run e = 1%nat.
Proof.
  split.
  - repeat constructor; try discriminate.
  - vm_compute. repeat split.
Qed.
