(* C39 The local run archive reads back exactly. Statements only. *)
From Coq Require Import ZArith List Bool.
From OP Require Import lib.Obs model.C39 proofs.C39_proofs.
Import ListNotations.
Open Scope Z_scope.

(* Reading the archive file back yields the archived rows unchanged, for ALL rows whose fields
   contain no CR/LF -- separators, commas, quotes and escape characters included -- and that are
   neither empty nor the single-empty-field row the writer rejects. *)
Theorem C39_roundtrip : forall rows, forallb row_ok rows = true -> read_rows (write_rows rows) = rows.
Proof. exact roundtrip. Qed.
Print Assumptions C39_roundtrip.

Theorem C39_writer_accepts : forall r, row_ok r = true -> write_row r <> None.
Proof. intros r H E. apply write_row_none in E. now subst r. Qed.
Print Assumptions C39_writer_accepts.

(* Every data row has exactly the columns of the header. *)
Theorem C39_columns : forall now (tags : list (str * str * bool)),
  length (data_row now (map (fun t => (snd (fst t), snd t)) tags))
  = length (header_row (map (fun t => (fst (fst t), snd t)) tags)).
Proof. exact columns. Qed.
Print Assumptions C39_columns.

Theorem C39_monitor_sound : forall i, holds_b i (run i) = true.
Proof. exact model_satisfies_monitor. Qed.
Print Assumptions C39_monitor_sound.

Example C39_nonvacuous :
  let rows := [[[50; 48]; [97; 44; 98]; [92; 59]; []]; [[49]; [34; 35]; []; [44]]] in   (* fields: 20, a-comma-b, backslash-semicolon, empty; 1, quote-hash, empty, comma *)
  forallb row_ok rows = true /\ read_rows (write_rows rows) = rows.
Proof. vm_compute. split; reflexivity. Qed.
