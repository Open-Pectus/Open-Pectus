(* C10 Stop and Restart leave no command running and start cleanly. Statements only. *)
From Coq Require Import ZArith List Bool Arith.
From OP Require Import lib.Obs model.Eng model.EngRun model.C10 model.C11 proofs.Eng_prims proofs.C10_proofs proofs.C11_proofs.
Import ListNotations.
Open Scope Z_scope.

(* Proved of the model for EVERY reachable state (any operation sequence, faults included):
   run ids are handed out in order 0, 1, 2, ... (so every run -- after Start and after Restart alike -- gets an id never
   used before) and the current run id is one of them. *)
Theorem C10_run_ids_fresh : forall safe overlaps n outs0 ops,
  let e := fold_left (fun e o => fst (step safe overlaps e o)) ops (boot safe (init n outs0)) in
  ids10 0 (trace e) = Some (next_run e) /\ (forall r, run_id e = Some r -> (r < next_run e)%nat).
Proof. intros safe overlaps n outs0 ops. exact (R10_reachable safe overlaps n outs0 ops). Qed.
Print Assumptions C10_run_ids_fresh.

(* the step that ends a run clears the run id and the started flag; Restart's last step installs the next id *)
Theorem C10_run_end_clears_run_id : forall safe e,
  (run_id (stop_core safe e) = None /\ started (stop_core safe e) = false)
  /\ (run_id (restart_stop e) = None /\ started (restart_stop e) = false)
  /\ (run_id (restart_finish e) = Some (next_run e) /\ started (restart_finish e) = true).
Proof. intros safe e. split; [apply stop_clears_run_id|split; [apply restart_clears_run_id|apply restart_new_run_id]]. Qed.
Print Assumptions C10_run_end_clears_run_id.

(* Stop / Restart cancel every executing request; for a UOD request that leaves its own instance disposed or cancelled
   (C11's lemma, restated for the clean-up pass) *)
Theorem C10_cancel_disposes_or_marks : forall e m r k, r_name r = CU k ->
  match find_u (fst (cancel_request e m r)) k with
  | None => True
  | Some c => c_id c = r_id r -> c_cancelled c = true
  end.
Proof. exact cancel_request_effect. Qed.
Print Assumptions C10_cancel_disposes_or_marks.

(* PARTIAL. Not proved: that NO instance is left when the run ends (a request whose tracking node refuses cancel() keeps
   its cancelled instance until its next turn; checked by the monitor on the real engine), the run-log clause and the
   simulation clause (tracking records and tag simulation are outside the engine-core model; C36 covers the tag side),
   "the method runs again from its first line" (interpreter). *)
Example C10_monitor_rejects :
  mon10 st10_0 [EStarted 0; EUInit 2 4; EUExec 2 4 0; EStoppedRun] = None
  /\ ids10 0 [EStarted 0; EStoppedRun; EStarted 0] = None
  /\ exists s, mon10 st10_0 [EStarted 0; EUInit 2 4; EUExec 2 4 0; EUFinal 2 4; EStoppedRun; EStarted 1] = Some s.
Proof. repeat split; try (vm_compute; reflexivity). eexists. vm_compute. reflexivity. Qed.
