(* C25 Composite hardware is transparent. Statements only. *)
From Coq Require Import ZArith List Bool Arith.
From OP Require Import lib.Obs model.C25 proofs.C25_proofs.
Import ListNotations.
Open Scope Z_scope.

(* A composite batch read delivers, register for register and in order, the single reads --
   for ANY register list, duplicates included. *)
Theorem C25_read : forall lay m rs, comp_read lay m rs = map (mget m) rs.
Proof. exact comp_read_spec. Qed.
Print Assumptions C25_read.

(* After a composite batch write (any batch, duplicates and unequal lengths included) every
   layer memory holds what the individual writes, in order, would have left. *)
Theorem C25_write_mem : forall lay m vs rs,
  meq (comp_write lay m vs rs) (fold_left write1 (combine vs rs) m).
Proof. exact comp_write_spec. Qed.
Print Assumptions C25_write_mem.

(* For a batch without repeated registers each layer receives exactly its sub-sequence of
   (register, value) pairs, in batch order. *)
Theorem C25_write_log : forall lay vs rs L,
  NoDup (map snd (combine vs rs)) ->
  let P := combine vs rs in
  let rl := regs_of lay L (map snd P) in
  combine rl (map (look P) rl)
  = map (fun p => (snd p, fst p)) (filter (fun p => Nat.eqb (layer_of lay (snd p)) L) P).
Proof.
  intros lay vs rs L Hnd P rl. subst rl. rewrite layer_receives. apply map_ext_in. intros [v r] Hp.
  apply filter_In in Hp as [Hp _]. cbn. now rewrite (look_unique P v r Hnd Hp).
Qed.
Print Assumptions C25_write_log.

(* Any sequence of batch reads and writes is observationally the one-at-a-time behaviour. *)
Theorem C25_sequences : forall lay os m1 m2, meq m1 m2 ->
  fst (fst (comp_run lay m1 os)) = fst (spec_run m2 os)
  /\ meq (snd (comp_run lay m1 os)) (snd (spec_run m2 os)).
Proof. exact run_refines. Qed.
Print Assumptions C25_sequences.

Theorem C25_monitor_sound : forall i, holds_b i (run i) = true.
Proof. exact model_satisfies_monitor. Qed.
Print Assumptions C25_monitor_sound.

Example C25_nonvacuous :
  run ([0; 1; 0; 2]%nat,
       [Write [10; 11; 12; 13] [0; 1; 2; 3]%nat; Read [3; 0; 0; 1]%nat; Write [5; 6; 7] [1; 1; 2]%nat;
        Read [1; 2]%nat])
  = ([[]; [13; 10; 10; 11]; []; [6; 7]],
     [(0%nat, [(0%nat, 10); (2%nat, 12)]); (1%nat, [(1%nat, 11)]); (2%nat, [(3%nat, 13)]);
      (1%nat, [(1%nat, 6); (1%nat, 6)]); (0%nat, [(2%nat, 7)])],
     [10; 6; 7; 13]).
Proof. vm_compute. reflexivity. Qed.
