(* C16 Reported tag times are the engine time of the change. Statements only. *)
From Coq Require Import ZArith List Bool String Lia.
From OP Require Import lib.Obs model.Tags proofs.Tags_proofs gen.Sites.
Import ListNotations.
Local Open Scope string_scope.
Local Open Scope list_scope.
Open Scope Z_scope.

(* If every stamping call passes the engine clock of the current tick and tick times never decrease
   (stamps_ok), then over ANY run: every tag's stamp lies at or below the current tick time, and per tag
   stamps never decrease. *)
Theorem C16_stamps_in_range_and_monotone : forall ops s,
  stamps_ok (now s) ops = true -> bounded s ->
  bounded (fold_left step ops s) /\ (forall i, t_stamp (get s i) <= t_stamp (get (fold_left step ops s) i)).
Proof. exact run_stamps. Qed.
Print Assumptions C16_stamps_in_range_and_monotone.

(* In one step a stamp either stays what it was or becomes the engine time of the current tick. *)
Theorem C16_stamp_is_a_tick_time : forall s o r,
  stamps_ok (now s) (o :: r) = true -> bounded s ->
  bounded (step s o) /\ stamps_ok (now (step s o)) r = true /\
  (forall i, t_stamp (get s i) <= t_stamp (get (step s o) i)) /\
  (forall i, t_stamp (get (step s o) i) = t_stamp (get s i) \/ t_stamp (get (step s o) i) = now (step s o)).
Proof. exact step_stamps. Qed.
Print Assumptions C16_stamp_is_a_tick_time.

(* A set_value that changes the value stamps it with the engine time of the tick in which it happens. *)
Theorem C16_change_stamped_with_tick_time : forall s i v,
  (i < n_tags s)%nat -> v <> t_val (get s i) ->
  let s' := step s (OSet i v (now s)) in t_val (get s' i) = v /\ t_stamp (get s' i) = now s'.
Proof. intros s i v Hi Hv. cbv zeta. rewrite now_step. exact (set_stamped s i v (now s) Hi Hv). Qed.
Print Assumptions C16_change_stamped_with_tick_time.

(* The hypothesis stamps_ok is a statement about call sites.  The table of ALL stamping call sites,
   regenerated from the source on every run, with the expression passed as time stamp classified. *)
Definition site_uses_tick_time (s : string * stamp_kind) : bool :=
  match snd s with TickTime | PassThrough => true | _ => false end.

Definition C16_sites_statement : Prop := forallb site_uses_tick_time stamp_sites = true.

(* FALSE on the current tree: nine sites stamp with the wall clock (known findings, listed one by one). *)
Definition known_wall_clock_sites : list string := [
  "engine/hardware_recovery.py:ErrorRecoveryDecorator._update_connection_status:set_value#0";
  "lang/exec/tags_impl.py:MarkTag.archive:set_value#0";
  "lang/exec/tags_impl.py:AccumulatorTag.reset:set_value#0";
  "lang/exec/tags_impl.py:BlockTimeTag.on_start:set_value#0";
  "lang/exec/tags_impl.py:ScopeTimeTag.on_start:set_value#0";
  "lang/exec/tags_impl.py:AccumulatedColumnVolume.reset:set_value#0";
  "lang/exec/tags_impl.py:DerivedTag._set_calculated_value:set_value#0";
  "lang/exec/tags_impl.py:DerivedTag._set_calculated_value:simulate_value#0";
  "lang/exec/tags_impl.py:DerivedTag.stop_simulation:simulate_value#0"]%string.

Theorem C16_sites_refuted : ~ C16_sites_statement.
Proof. unfold C16_sites_statement. vm_compute. discriminate. Qed.
Print Assumptions C16_sites_refuted.

(* Every OTHER site passes the tick time (or forwards its caller's stamp); the known sites are wall-clock
   sites and nothing else (no tick number, no stale stamp). *)
Theorem C16_sites_partial :
  forallb (fun s => site_uses_tick_time s
                    || (existsb (String.eqb (fst s)) known_wall_clock_sites
                        && match snd s with WallClock => true | _ => false end)) stamp_sites = true.
Proof. vm_compute. reflexivity. Qed.
Print Assumptions C16_sites_partial.

(* Stamping with anything else than the tick time is what the monitor on implementation traces catches. *)
Theorem C16_monitor_catches_tick_number :
  c16_holds_b ([(1, 0, false, 0)], [OTick 4000; OSet 0 2 3; ONotify; OCollect false])
              (run ([(1, 0, false, 0)], [OTick 4000; OSet 0 2 3; ONotify; OCollect false])) = false.
Proof. exact tick_number_stamp_caught. Qed.
Print Assumptions C16_monitor_catches_tick_number.

Example C16_nonvacuous :
  let ts := [{| t_val := 1; t_sim := 0; t_simd := false; t_stamp := 0 |}] in
  let ops := [OTick 10; OSet 0 2 10; ONotify; OCollect false; OTick 12; OSet 0 2 12; OSet 0 3 12; ONotify; OCollect false] in
  stamps_ok 0 ops = true /\ bounded (init ts) /\
  run ([(1, 0, false, 0)], ops) = [([(0%nat, 2, 10)], [2]); ([(0%nat, 3, 12)], [3])] /\
  c16_holds_b ([(1, 0, false, 0)], ops) (run ([(1, 0, false, 0)], ops)) = true.
Proof.
  split; [reflexivity|split; [|split; vm_compute; reflexivity]].
  intros i. unfold get. cbn. destruct i as [|[|i]]; cbn; lia.
Qed.
