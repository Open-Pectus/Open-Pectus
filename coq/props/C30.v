(* C30 Each run yields exactly one recent run and one plot log. Statements only.
   (model/Agg.v models the repaired create_plot_log; see KNOWN_FINDINGS.json) *)
From Coq Require Import ZArith List Bool Arith.
From OP Require Import lib.Obs model.C29 model.Agg proofs.Agg_proofs.
Import ListNotations.
Open Scope Z_scope.

(* One plot log per (engine, run) in every state reachable by ANY history: duplicated, resent and
   reordered notifications, disconnects, graceful restarts and crashes of the aggregator. *)
Theorem C30_one_plot_log : forall interval entries os,
  NoDup (plot_logs (data (final interval entries init os))).
Proof. intros interval entries os. apply reachable_plot_logs_nodup. constructor. Qed.
Print Assumptions C30_one_plot_log.

(* Full-strength statement for recent runs. *)
Definition C30_one_recent_run_statement : Prop :=
  forall interval entries os, NoDup (recent_runs (data (final interval entries init os))).

(* It is FALSE of the faithful model: a run-started notification replayed after the run was
   stopped and stored re-opens the run, and the replayed stop stores it a second time. *)
Theorem C30_one_recent_run_refuted : ~ C30_one_recent_run_statement.
Proof.
  intros H.
  specialize (H None [] [Register 0%nat; RunStarted 0%nat 1 0; RunStopped 0%nat 1;
                          RunStarted 0%nat 1 0; RunStopped 0%nat 1]).
  vm_compute in H. inversion H as [|x l Hnin _]; subst. apply Hnin. now left.
Qed.
Print Assumptions C30_one_recent_run_refuted.

(* Partial: exactly one record per run on every history in which no run id that is already stored
   is installed again (by a replayed run-started or by a stale recent-engine row after a crash). *)
Theorem C30_one_recent_run_partial : forall interval entries os,
  guarded interval entries init os = true ->
  NoDup (recent_runs (data (final interval entries init os))).
Proof.
  intros interval entries os H.
  exact (runs_nodup _ (reachable_stored_once interval entries os init init_stored_once H)).
Qed.
Print Assumptions C30_one_recent_run_partial.

(* ... and while a run is open it has no record yet: it is stored when it stops, not before. *)
Theorem C30_open_run_not_stored : forall interval entries os,
  guarded interval entries init os = true ->
  let s := final interval entries init os in
  forall x c, In x (engines s) -> e_run x = Some c -> ~ In (e_id x, rd_id c) (recent_runs (data s)).
Proof.
  intros interval entries os H.
  exact (open_unstored _ (reachable_stored_once interval entries os init init_stored_once H)).
Qed.
Print Assumptions C30_open_run_not_stored.

(* Non-vacuity: a history with duplicated start and stop notifications and a reconnect satisfies
   the guard and stores the run once. *)
Example C30_nonvacuous :
  let os := [Register 0%nat; RunStarted 0%nat 1 0; RunStarted 0%nat 1 0; Disconnect 0%nat; Register 0%nat;
             RunStarted 0%nat 1 0; RunStopped 0%nat 1; RunStopped 0%nat 1] in
  guarded None [] init os = true /\
  recent_runs (data (final None [] init os)) = [(0%nat, 1)] /\
  plot_logs (data (final None [] init os)) = [(0%nat, 1)].
Proof. vm_compute. repeat split; reflexivity. Qed.
