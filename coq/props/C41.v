(* C41 Macros ... never recurse (recursion clause). Statements only. *)
From Coq Require Import ZArith List Bool Arith.
From OP Require Import lib.Obs model.C41 model.Interp model.InterpRun proofs.Interp_inv proofs.C41_proofs proofs.C41_registry.
Import ListNotations.
From Coq Require Import Lia.

(* The decision both the interpreter (visit_CallMacroNode) and the analyzer take -- refuse the call / flag the macro when
   macro_calling_macro finds the macro's own name -- is EXACTLY "some chain of calls starting in the macro's body leads
   to a call of the macro", for every macro table of any size and shape (cycles among other macros, repeated calls,
   undefined callees, redefinitions): sound (a reported chain is genuine and ends with the macro), complete (no chain
   is missed) and terminating within a recursion depth of the number of macros. *)
Theorem C41_refused_iff_would_recurse : forall t m b, lookup t m = Some b ->
  (refused t m = true <-> reach t m b).
Proof. exact refused_decides. Qed.
Print Assumptions C41_refused_iff_would_recurse.

Theorem C41_reported_chain_is_genuine : forall t target f vis body p v,
  search f t target vis body = Some (p, v) -> p <> [] -> reach t target body /\ last p 0%nat = target.
Proof. exact sound. Qed.
Print Assumptions C41_reported_chain_is_genuine.

Theorem C41_search_terminates : forall t target body, search (Datatypes.S (length t)) t target [] body <> None.
Proof. exact search_terminates. Qed.
Print Assumptions C41_search_terminates.

(* before the /repo fix only the FIRST resolvable call among the DIRECT children was followed, so
   A = [call B; call A], B = []  was not refused although A calls itself (the run then stalled); the search refuses it *)
Example C41_old_behaviour_missed :
  let t := [(0, [1; 0]); (1, [])]%nat in refused t 0%nat = true /\ reach t 0%nat [1; 0]%nat.
Proof. split; [vm_compute; reflexivity|apply r_here; right; now left]. Qed.

(* The interpreter's side (model/Interp.v, validated tick by tick against the real PInterpreter on generated methods with
   macro definitions, redefinitions, calls in blocks and watch bodies): a call runs the body of the Macro node REGISTERED
   LAST under that name; a call of an undefined macro, or one the recursion search refuses, fails without running a line. *)
Theorem C41_latest_definition_wins : forall l nm m, Interp.macro_lookup (Interp.macro_put l nm m) nm = Some m.
Proof. intros l nm m. now rewrite lookup_put, Nat.eqb_refl. Qed.
Print Assumptions C41_latest_definition_wins.
Theorem C41_other_macros_untouched_by_a_definition : forall l nm m nm', nm' <> nm ->
  Interp.macro_lookup (Interp.macro_put l nm m) nm' = Interp.macro_lookup l nm'.
Proof. intros l nm m nm' N. now rewrite lookup_put, (proj2 (Nat.eqb_neq nm nm')) by congruence. Qed.
Print Assumptions C41_other_macros_untouched_by_a_definition.
Theorem C41_undefined_call_fails : forall p e b n nm k s,
  Interp.n_kind (Interp.nd p n) = Interp.KCallMacro nm -> Interp.macro_lookup (Interp.macros s) nm = None ->
  Interp.dispatch p e b n k s = Interp.Raise k s.
Proof. exact undefined_call_fails. Qed.
Print Assumptions C41_undefined_call_fails.
Theorem C41_recursive_call_fails : forall p e b n nm m k s,
  Interp.n_kind (Interp.nd p n) = Interp.KCallMacro nm -> Interp.macro_lookup (Interp.macros s) nm = Some m ->
  Interp.would_recurse p s nm m = true -> Interp.dispatch p e b n k s = Interp.Raise k s.
Proof. exact recursive_call_fails. Qed.
Print Assumptions C41_recursive_call_fails.

(* the registry over whole runs: every transition of the interpreter model keeps the registry, except the execution of a
   definition line that is not yet registered, which puts that line under its own name (with C41_latest_definition_wins and
   C41_other_macros_untouched_by_a_definition: the name then resolves to that line, every other name as before) *)
Theorem C41_only_a_definition_line_changes_the_registry : forall p e b f k s,
  C41_registry.reg_step p f s (C41_registry.out_state (step p e b f k s)).
Proof. exact C41_registry.step_reg. Qed.
Print Assumptions C41_only_a_definition_line_changes_the_registry.
(* after every tick of every run every registry entry is a Macro definition line carrying the entry's name *)
Theorem C41_registry_holds_definitions_of_the_name : forall p ts,
  Forall (fun s => Forall (fun x => n_kind (nd p (snd x)) = KMacro (fst x)) (macros s)) (states p [FVisit 0] (InterpRun.init p) 0%Z ts).
Proof. intros p ts. apply C41_registry.registry_wf_always. constructor. Qed.
Print Assumptions C41_registry_holds_definitions_of_the_name.
(* so a call either fails or runs the children of the definition registered under the called name *)
Theorem C41_call_runs_the_registered_definition : forall p e b n nm k s,
  Forall (fun x => n_kind (nd p (snd x)) = KMacro (fst x)) (macros s) -> n_kind (nd p n) = KCallMacro nm ->
  dispatch p e b n k s = Raise k s
  \/ exists m s1, macro_lookup (macros s) nm = Some m /\ n_kind (nd p m) = KMacro nm
                  /\ dispatch p e b n k s = Go (FKidsEntry m :: FCallAfter n m :: k) s1.
Proof. exact C41_registry.call_runs_registered_definition. Qed.
Print Assumptions C41_call_runs_the_registered_definition.

(* PARTIAL: "once per call, lines in order" is covered by the correspondence of the interpreter model (C02's monitors run on
   methods with macros) and by the run stream below, not by a theorem; "a started macro may not be edited or removed"
   belongs to the live-edit validation (C01). The run stream of the check observes on
   the real engine that a method of macro calls either fails or reaches its end (never stalls) and fails exactly when an
   executed call is undefined or would recurse. *)
